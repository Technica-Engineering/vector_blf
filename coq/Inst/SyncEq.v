(* Inst/SyncEq.v — the wait predicates and notifications of UncompressedFile, translated from the
   source on every run (Gen/Sync.v), are those of the model Lib/UFModel.v: for every state whose positions lie below
   2^62 (wfu) and every request below 2^62. *)
From VB Require Import Base IR Sem BaseFacts Mon UFModel.
From VB Require Import Sync SyncDefs.
Local Open Scope Z_scope.

Definition B62 : Z := 4611686018427387904.     (* 2^62: positions and requests stay far below 2^63 *)
Definition wfu (s : uf) : Prop :=
  0 <= u_tellg s < B62 /\ 0 <= u_tellp s < B62 /\ 0 <= u_fsz s <= MAXSZ /\ 0 <= u_buf s <= MAXSZ.

Lemma init_members : map (fun x => snd x) uf_vars = map Some (ms_vars (uabs uf_init)).
Proof. vm_compute. reflexivity. Qed.

Lemma waits_shape :
  map fst (uwaits "read") = [CVU_tellp] /\ map fst (uwaits "write@bytes") = [CVU_tellg] /\
  map fst (uwaits "write@container") = [CVU_tellg] /\
  uwaits "seekg" = [] /\ uwaits "abort" = [] /\ uwaits "setFileSize" = [] /\ uwaits "dropOldData" = [] /\
  uwaits "nextLogContainer" = [] /\ uwaits "setBufferSize" = [] /\ uwaits "setDefaultLogContainerSize" = [].
Proof. vm_compute. repeat split. Qed.

Lemma notes_eq :
  unotes "read" = [CVU_tellg; CVU_tellg] /\ unotes "seekg" = [CVU_tellg] /\ unotes "write@bytes" = [CVU_tellp] /\
  unotes "write@container" = [CVU_tellp] /\ unotes "abort" = [CVU_tellg; CVU_tellp] /\ unotes "setFileSize" = [CVU_tellp] /\
  unotes "nextLogContainer" = [] /\ unotes "dropOldData" = [] /\ unotes "setBufferSize" = [] /\ unotes "setDefaultLogContainerSize" = [].
Proof. vm_compute. repeat split. Qed.

(* read(n): the buffer grows to a larger request, and the writer is told, before the wait *)
Lemma read_grows_buffer : exists pred rest,
  umeth "read" = TSeq TLock (TSeq (TIf (XBin OGt (XArg I64) (XVar 5)) (TSeq (TSet 5 (XArg I64)) (TNotify CVU_tellg)) TSkip) (TSeq (TWait CVU_tellp pred) rest))
  /\ nth_error (map (fun x => fst (fst x)) uf_vars) 5 = Some "m_bufferSize"%string.
Proof. eexists. eexists. split; vm_compute; reflexivity. Qed.

(* the 17 public methods take the mutex before anything else.  Not in the list: ~UncompressedFile, whose body is the call
   of abort() (which locks), and the private logContainerContaining, which takes no lock: in UncompressedFile.cpp it is
   called by read, the two write and nextLogContainer only, each after it has locked *)
Definition starts_locked (s : mstmt) : bool :=
  match s with TSeq TLock _ => true | TLock => true | _ => false end.
Lemma all_locked : forallb (fun n => starts_locked (umeth n))
  ["gcount"; "read"; "tellg"; "seekg"; "write@bytes"; "tellp"; "good"; "eof"; "abort"; "write@container"; "nextLogContainer";
   "fileSize"; "setFileSize"; "setBufferSize"; "dropOldData"; "defaultLogContainerSize"; "setDefaultLogContainerSize"]%string = true.
Proof. vm_compute. reflexivity. Qed.

Lemma norm_u32 z : norm U32 z = z mod 4294967296.
Proof. reflexivity. Qed.

(* cbn runs meval on the guard; sums, norm and in_range stay folded for simp64 to find, comparisons unfold only where they compute *)
Local Arguments Z.add : simpl never.
Local Arguments Z.sub : simpl never.
Local Arguments Z.mul : simpl never.
Local Arguments Z.modulo : simpl never.
Local Arguments Z.pow : simpl never.
Local Arguments Z.ltb : simpl nomatch.
Local Arguments Z.leb : simpl nomatch.
Local Arguments Z.eqb : simpl nomatch.
Local Arguments norm : simpl never.
Local Arguments in_range : simpl never.

Definition pred1 (n : string) : mexpr := match uwaits n with (_, p) :: _ => p | [] => XConst 0 TBool end.

(* sums and differences of positions below 2^62 are values of int64: no wrap, no overflow *)
Ltac i64 := unfold in_type, in_range, bits, B62, MAXSZ in *; cbn [signed width]; lia.
Ltac simp64 :=
  repeat match goal with
         | |- context [norm I64 ?z] => rewrite (norm_id I64 z) by i64
         | |- context [in_range I64 ?z] => replace (in_range I64 z) with true by (symmetry; i64)
         end.

Lemma read_guard_eq : forall s n, wfu s -> 0 <= n < B62 ->
  ueval s n 0 (pred1 "read") = Ok (ub2z (uf_read_guard s n), TBool).
Proof.
  intros [ab d tg tp gc fs bf rd dcs] n (H1 & H2 & H3 & H4) Hn. cbn in *.
  (* simp64 twice: the first settles the overflow test of the sum, so that cbn can run the comparison; the comparison
     converts both sides once more (norm), which the second removes *)
  unfold ueval, uf_read_guard. cbn. simp64. cbn. simp64.
  destruct ab; cbn; [reflexivity|].
  destruct (n + tg <=? tp); cbn; [reflexivity|].
  destruct (fs <? n + tg); reflexivity.
Qed.

Lemma write_guard_eq : forall s, wfu s ->
  ueval s 0 0 (pred1 "write@bytes") = Ok (ub2z (uf_write_guard s), TBool).
Proof.
  intros [ab d tg tp gc fs bf rd dcs] (H1 & H2 & H3 & H4). cbn in *.
  unfold ueval, uf_write_guard. cbn. simp64. cbn. simp64.
  destruct ab; cbn; [reflexivity|].
  destruct (tp - tg <? bf); reflexivity.
Qed.

(* write(logContainer) waits on the same expression, and the model on the same guard *)
Lemma writec_guard_eq : forall s, wfu s ->
  ueval s 0 0 (pred1 "write@container") = Ok (ub2z (uf_writec_guard s), TBool).
Proof. exact write_guard_eq. Qed.
