(* Inst/Codec.v — the reflective codec checks evaluated on the generated programs (re-checked on
   every run), and the class-level theorems they yield. *)
From VB Require Import Base IR Sem Tables BaseFacts StreamFacts EvalFacts Roundtrip ClassRT CallFacts FreshFacts.
From VB Require Import Classes Consts Common CodecDefs FreshEq.
Local Open Scope Z_scope.

Lemma sig_ok : 0 <= sp_sig scan_p < 2 ^ 32.
Proof. vm_compute. split; [discriminate|reflexivity]. Qed.

(* gate: translator/blf2coq.py writes false (and a dummy scan_p with signature 0) when it does not find the signature search loop of
   ObjectHeaderBase::read in the shape it translates (match_scan) *)
Lemma scan_recognised_ok : scan_recognised = true.
Proof. reflexivity. Qed.

(* rt_ok is what the extracted harness evaluates per class; its fresh_wf_b conjunct is taken from FreshEq.fresh_all_wf, so the
   kernel sweeps only the other two here *)
Lemma rt_rest_b : forallb (fun c => class_rt_ok cs scan_p (Wp c) (Rp c) && defined_b (wfields (emit_of c)) (fresh cs c))
                    (minus object_classes rt_exceptions) = true.
Proof. vm_compute. reflexivity. Qed.

Lemma rt_all_b : forallb rt_ok (minus object_classes rt_exceptions) = true.
Proof.
  apply forallb_forall. intros c Hc. pose proof (proj1 (forallb_forall _ _) rt_rest_b c Hc) as H.
  apply andb_prop in H. destruct H as [H1 H2]. apply minus_incl in Hc.
  unfold rt_ok. rewrite H1, H2, (proj1 (forallb_forall _ _) fresh_all_wf c Hc). reflexivity.
Qed.

(* the states the property quantifies over: well-shaped members, populated containers, the
   signature untouched, and every derived length representable in its length member *)
Definition api_state (c : Z) (s : state) : Prop :=
  wf_state cs s /\
  defined_on (wfields (emit_of c) ++ deriv_conts cs (pre_of c)) s /\
  s (sp_field scan_p) = VInt (sp_sig scan_p) /\
  pre_guard cs (pre_of c) s.

Lemma rt_parts c : In c object_classes -> ~ In c rt_exceptions ->
  class_rt_ok cs scan_p (Wp c) (Rp c) = true /\ wf_state cs (fresh cs c) /\ defined_on (wfields (emit_of c)) (fresh cs c).
Proof.
  intros Hc Hex. pose proof (forallb_minus _ _ _ rt_all_b c Hc Hex) as H. unfold rt_ok in H.
  apply andb_prop in H. destruct H as [H H3]. apply andb_prop in H. destruct H as [H1 H2].
  split; [exact H1|]. split; [apply fresh_wf; exact H2|apply defined_b_ok; exact H3].
Qed.

Theorem object_rt : forall c, In c object_classes -> ~ In c rt_exceptions ->
  forall s s' bytes, api_state c s -> enc cs default_cap c s = Ok (s', bytes) ->
  forall rest, exists r' i',
    dec cs scan_p default_cap c (fresh cs c) (mk_ustream (bytes ++ rest)) = Ok (r', i') /\
    nstream i' /\ s_after i' = rest /\
    (forall f, In f (emitted cs (callf cs c) (emit_of c) s') -> r' f = s' f) /\
    (forall f, ~ In f (emitted cs (callf cs c) (emit_of c) s') -> r' f = fresh cs c f) /\
    (forall f, ~ In f (map fst (pre_of c)) -> s' f = s f).
Proof.
  intros c Hc Hex s s' bytes (Hw & Hd & Hsig & Hg) Henc rest. destruct (rt_parts c Hc Hex) as (Hrt & Hfw & Hdef).
  exact (object_roundtrip cs (callf cs c) scan_p default_cap cap_ok sig_ok (Wp c) (Rp c) Hrt
           s s' bytes Henc Hw Hd Hsig Hg (fresh cs c) rest Hfw Hdef).
Qed.

(* the same on any in-memory stream that stands at the object (not only one that starts there), with the good flag *)
Theorem object_rt_stream : forall c, In c object_classes -> ~ In c rt_exceptions ->
  forall s s' bytes, api_state c s -> enc cs default_cap c s = Ok (s', bytes) ->
  forall i rest, nstream i -> s_after i = bytes ++ rest -> exists r' i',
    dec cs scan_p default_cap c (fresh cs c) i = Ok (r', i') /\
    nstream i' /\ s_after i' = rest /\ (s_good i = true -> s_good i' = true) /\
    (forall f, In f (emitted cs (callf cs c) (emit_of c) s') -> r' f = s' f) /\
    (forall f, ~ In f (emitted cs (callf cs c) (emit_of c) s') -> r' f = fresh cs c f).
Proof.
  intros c Hc Hex s s' bytes (Hw & Hd & Hsig & Hg) Henc i rest Hi Ha. destruct (rt_parts c Hc Hex) as (Hrt & Hfw & Hdef).
  destruct (object_roundtrip_stream cs (callf cs c) scan_p default_cap cap_ok sig_ok (Wp c) (Rp c) Hrt
              s s' bytes Henc Hw Hd Hsig Hg (fresh cs c) i rest Hi Ha Hfw Hdef)
    as (r' & i' & H1 & H2 & H3 & Hgd & H4 & H5 & _).
  exists r', i'. exact (conj H1 (conj H2 (conj H3 (conj Hgd (conj H4 H5))))).
Qed.

(* what write() leaves behind (ClassRT.object_write_facts) on the regenerated classes: s' is a fixed point of the emission part,
   well-shaped, determined where emitted, its signature intact *)
Theorem object_written : forall c, In c object_classes -> ~ In c rt_exceptions ->
  forall s s' bytes, api_state c s -> enc cs default_cap c s = Ok (s', bytes) ->
  run_w cs (callf cs c) default_cap (emit_of c) s' no_locals = Ok (s', bytes) /\ wf_state cs s' /\
  defined_on (emitted cs (callf cs c) (emit_of c) s') s' /\ s' (sp_field scan_p) = VInt (sp_sig scan_p).
Proof.
  intros c Hc Hex s s' bytes (Hw & Hd & Hsig & Hg) Henc.
  destruct (object_write_facts cs (callf cs c) scan_p default_cap (Wp c) (Rp c) (proj1 (rt_parts c Hc Hex))
              s s' bytes Henc Hw Hd Hsig Hg) as (_ & H1 & _ & H2 & H3 & H4 & _).
  exact (conj H1 (conj H2 (conj H3 H4))).
Qed.

Theorem enc_in_bounds : forall c, In c object_classes -> ~ In c rt_exceptions ->
  forall s, api_state c s -> enc cs default_cap c s <> Err EOOBRead.
Proof.
  intros c Hc Hex s (Hw & Hd & Hsig & Hg).
  exact (encoder_in_bounds cs (callf cs c) scan_p default_cap (callf_not cs EOOBRead eq_refl c) (Wp c) (Rp c)
           (proj1 (rt_parts c Hc Hex)) s Hw Hd Hg).
Qed.

Theorem lengths_exact : forall c, In c object_classes -> ~ In c rt_exceptions ->
  forall s s' bytes, api_state c s -> enc cs default_cap c s = Ok (s', bytes) ->
  M_sound cs (pre_M cs (pre_of c)) s'.
Proof.
  intros c Hc Hex s s' bytes (Hw & Hd & Hsig & Hg) Henc.
  exact (proj1 (proj2 (proj2 (object_write_facts cs (callf cs c) scan_p default_cap (Wp c) (Rp c)
                                (proj1 (rt_parts c Hc Hex)) s s' bytes Henc Hw Hd Hsig Hg)))).
Qed.

(* non-vacuity of enc on a state with a derived length: AppText with a 3-byte text encodes, to 54 bytes *)
Definition ex_apptext : state :=
  let c := class_of_name "AppText" in
  match find (fun x => String.eqb (f_name x) "text") (all_fields cs depth c) with
  | Some x => upd (fresh cs c) (f_id x) (VBytes [97; 98; 99])
  | None => fresh cs c end.
Example ex_apptext_encodes :
  match enc cs default_cap (class_of_name "AppText") ex_apptext with
  | Ok (_, bytes) => zlen bytes = 54 | Err _ => False end.
Proof. vm_compute. reflexivity. Qed.
