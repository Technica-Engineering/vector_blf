(* Inst/SafeEq.v — C10 obligations over generated terms: the try/catch skeletons of the four worker threads (no exception
   escapes, a read worker declares the end on every exit), then memory safety of every regenerated decoder. *)
From Coq Require Import String List Bool.
From VB Require Import Threads.
Import ListNotations.
Local Open Scope string_scope.

Definition sk_name (x : string * bool * bool * bool * bool * bool) := fst (fst (fst (fst (fst x)))).
Definition sk_catch_all (x : string * bool * bool * bool * bool * bool) := snd (fst (fst (fst (fst x)))).
Definition sk_handler_eof (x : string * bool * bool * bool * bool * bool) := snd (fst (fst x)).
Definition sk_normal_eof (x : string * bool * bool * bool * bool * bool) := snd (fst x).
Definition sk_inner (x : string * bool * bool * bool * bool * bool) := snd x.

Definition is_read_thread (n : string) : bool :=
  String.eqb n "uncompressedFileReadThread" || String.eqb n "compressedFileReadThread".

Lemma no_escape : map sk_name thread_skeletons =
    ["uncompressedFileReadThread"; "uncompressedFileWriteThread"; "compressedFileReadThread"; "compressedFileWriteThread"] /\
  forallb sk_catch_all thread_skeletons = true.
Proof. vm_compute. split; reflexivity. Qed.

Lemma read_workers_always_declare_end :
  forallb (fun x => negb (is_read_thread (sk_name x)) || (sk_handler_eof x && sk_normal_eof x && sk_inner x)) thread_skeletons = true.
Proof. vm_compute. reflexivity. Qed.

From VB Require Import Base IR Sem Tables BaseFacts EvalFacts CallFacts Roundtrip FreshFacts SafeFacts.
From VB Require Import Classes Consts Common FreshEq.
Local Open Scope Z_scope.

Definition Rd (c : Z) : prog := prog_of cs c M_read.

Lemma rd_safe_all : forallb (fun c => rd_safe cs (Rd c)) object_classes = true.
Proof. vm_compute. reflexivity. Qed.

(* the section hypotheses of SafeFacts on the regenerated tables: Hke, Hks (kelt_nonneg, ksize_small, both from the one sweep field_sizes_ok
   through fields_forall), Hsig (sig_in_type), Hcap (cap_small).  2^60 is SafeFacts' bound on every length (st_ok): it lies below the 2^62
   under which its 64-bit arithmetic on lengths stays exact *)
Lemma field_sizes_ok : forallb (fun x => (0 <=? kelt (f_kind x)) && match ksize (f_kind x) with Some w => (0 <=? w) && (w <? 2 ^ 60) | None => true end)
                         (flat_map c_fields cs) = true.
Proof. vm_compute. reflexivity. Qed.

Lemma kelt_nonneg f x : find_field cs f = Some x -> 0 <= kelt (f_kind x).
Proof. intros H. pose proof (fields_forall cs _ field_sizes_ok f x H) as B. lia. Qed.

Lemma ksize_small f x w : find_field cs f = Some x -> ksize (f_kind x) = Some w -> 0 <= w < 2 ^ 60.
Proof. intros H Hw. pose proof (fields_forall cs _ field_sizes_ok f x H) as B. cbv beta in B. rewrite Hw in B. lia. Qed.

Lemma sig_in_type : forall x t, find_field cs (sp_field scan_p) = Some x -> f_kind x = KScalar t -> in_type t (sp_sig scan_p) = true.
Proof.
  intros x t H K. vm_compute in H. inversion H; subst x. cbn in K. inversion K; subst t. reflexivity.
Qed.

Lemma cap_small : default_cap < 2 ^ 60.
Proof. reflexivity. Qed.

Theorem decoders_memory_safe : forall c, In c object_classes ->
  forall i, dec cs scan_p default_cap c (fresh cs c) i <> Err EOOBWrite.
Proof.
  intros c Hc i. unfold dec.
  apply (rd_safe_sound cs (callf cs c) scan_p default_cap (callf_not cs EOOBWrite eq_refl c) sig_in_type cap_small kelt_nonneg ksize_small
           (prog_of cs c M_read) None (proj1 (forallb_forall _ _) rd_safe_all c Hc) (fresh cs c) no_locals i).
  - apply (wf_st_ok cs ksize_small), fresh_wf. exact (proj1 (forallb_forall _ _) fresh_all_wf c Hc).
  - exact I.
Qed.
