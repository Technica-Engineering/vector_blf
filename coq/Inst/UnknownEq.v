(* Inst/UnknownEq.v — C09 at the level of the uncompressed stream: an object of a type the factory does not know, standing in
   front of any continuation of the stream, is skipped as a whole by the parser stage — by its declared size, whatever its
   payload holds (images of known objects included), whatever header size / version it declares. *)
From VB Require Import Base IR Sem Tables BaseFacts StreamFacts EvalFacts Roundtrip ClassRT CallFacts FreshFacts FileModel TermFacts StreamLevel ObjLoop.
From VB Require Import Classes Consts Common CodecDefs Codec FileDefs TermEq StreamRT PrefixEq.
Local Open Scope Z_scope.

Record uobj := { u_hsz : Z; u_hver : Z; u_osz : Z; u_type : Z; u_payload : list Z }.

Definition uobj_ok (u : uobj) : Prop :=
  0 <= u_hsz u < 2 ^ 16 /\ 0 <= u_hver u < 2 ^ 16 /\ 16 <= u_osz u < 2 ^ 32 /\ 0 <= u_type u < 2 ^ 32 /\
  lookup_factory factory_table (u_type u) = 0 /\ zlen (u_payload u) = u_osz u - 16.

(* the header of u as a state: a default-constructed ObjectHeaderBase (its signature member holds the signature) with the four
   other members set *)
Definition u_state (u : uobj) : state :=
  upd (upd (upd (upd (fresh cs C_ohb) fid_headerSize (VInt (u_hsz u))) fid_headerVersion (VInt (u_hver u))) fid_objectSize (VInt (u_osz u))) fid_objectType (VInt (u_type u)).

Definition u_hdr (u : uobj) : list Z :=
  le_enc 4 (sp_sig scan_p) ++ le_enc 2 (u_hsz u) ++ le_enc 2 (u_hver u) ++ le_enc 4 (u_osz u) ++ le_enc 4 (u_type u).
Definition u_bytes (u : uobj) : list Z := u_hdr u ++ u_payload u.

Lemma u_header_bytes u : uobj_ok u -> header_bytes (u_state u) (u_hdr u).
Proof.
  intros (H1 & H2 & H3 & H4 & _). split; [|split; [|split]].
  - unfold u_state.
    eapply wf_upd_int with (t := U32); [|reflexivity|reflexivity|cbn; lia]. eapply wf_upd_int with (t := U32); [|reflexivity|reflexivity|cbn; lia].
    eapply wf_upd_int with (t := U16); [|reflexivity|reflexivity|cbn; lia]. eapply wf_upd_int with (t := U16); [|reflexivity|reflexivity|cbn; lia].
    exact (fresh_wf cs C_ohb ohb_fresh_wf).
  - apply defined_b_ok. reflexivity.
  - reflexivity.
  - intros call. pose proof sig_ok.
    rewrite (W_ohb_run call (u_state u) (sp_sig scan_p) (u_hsz u) (u_hver u) (u_osz u) (u_type u)) by reflexivity.
    rewrite !Z.mod_small by lia. reflexivity.
Qed.

(* the declared size is the actual size, and, being at least a header, is what the loop skips by *)
Lemma uobj_size u : uobj_ok u -> zlen (u_bytes u) = u_osz u /\ Z.max (u_osz u) 16 = u_osz u.
Proof.
  intros Hu. pose proof Hu as (_ & _ & H3 & _ & _ & Hpl). split; [|lia].
  unfold u_bytes. rewrite zlen_app, (hdr_len _ _ (u_header_bytes u Hu)), Hpl. ring.
Qed.

Lemma unknown_step : forall u fuel i rest acc count, uobj_ok u -> nstream i -> s_good i = true -> s_after i = u_bytes u ++ rest ->
  exists i', nstream i' /\ s_good i' = true /\ s_after i' = rest /\ OL (S fuel) i acc count = OL fuel i' acc count.
Proof.
  intros u fuel i rest acc count Hu Hi Hg Ha.
  pose proof Hu as (_ & _ & _ & _ & Hfac & _). destruct (uobj_size u Hu) as [Hlen Hmax].
  pose proof Ha as Ha0. unfold u_bytes in Ha0. rewrite <- app_assoc in Ha0.
  destruct (header_peek _ _ i _ (u_header_bytes u Hu) Hi Hg Ha0) as (h & i1 & Hpk & Hho & Hht).
  destruct (pk_read Hpk) as [Hdec1 Hg1]. destruct (pk_back Hpk) as (Hn2 & Hg2 & Ha2).
  assert (Hosz : geti h fid_objectSize = u_osz u) by (unfold geti; rewrite Hho; reflexivity).
  assert (Htyp : geti h fid_objectType = u_type u) by (unfold geti; rewrite Hht; reflexivity).
  rewrite <- Htyp in Hfac. rewrite (iter_unknown fid_objectSize fuel acc count Hdec1 Hg1 Hfac), Hosz, Hmax.
  (* the skip is a seek over the header and the payload *)
  rewrite Ha in Ha2. rewrite <- Hlen. destruct (seek_over _ _ _ Hn2 Ha2) as (Hn' & Ha' & Hg'). rewrite Hg2 in Hg'. eauto.
Qed.

Inductive item := Known (o : wobj) | Unknown (u : uobj).
Definition item_ok (x : item) : Prop := match x with Known o => wobj_ok o | Unknown u => uobj_ok u end.
Definition item_bytes (x : item) : list Z := match x with Known o => w_bytes o | Unknown u => u_bytes u end.
Definition knowns (l : list item) : list wobj := flat_map (fun x => match x with Known o => [o] | Unknown _ => [] end) l.

Lemma consumes_unknown u : uobj_ok u -> consumes 1 (u_bytes u) [].
Proof.
  intros Hu fuel i rest acc count Hi Hg Ha. destruct (unknown_step u fuel i rest acc count Hu Hi Hg Ha) as (i' & H).
  exists [], i'. rewrite app_nil_r. split; [constructor|exact H].
Qed.

Lemma items_consumed items : Forall item_ok items -> consumes (length items) (concat (map item_bytes items)) (knowns items).
Proof.
  induction 1 as [|x r Hx _ IH]; [exact consumes_nil|].
  destruct x as [o|u]; [exact (consumes_app 1 _ _ _ [o] _ (consumes_known o Hx) IH)|exact (consumes_app 1 _ _ _ [] _ (consumes_unknown u Hx) IH)].
Qed.

(* non-vacuity: type 200, 24 bytes, the payload starts with the signature *)
Example ex_unknown : uobj_ok {| u_hsz := 32; u_hver := 7; u_osz := 24; u_type := 200; u_payload := [76; 79; 66; 74; 1; 2; 3; 4] |}.
Proof. unfold uobj_ok. cbn [u_hsz u_hver u_osz u_type u_payload]. repeat split; try lia; try reflexivity. Qed.
