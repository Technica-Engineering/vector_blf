(* Inst/PrefixEq.v — C08 at the level of the uncompressed stream: the parser stage over a stream that was cut off inside an
   object delivers the objects before it unmodified, possibly that object, and nothing else.  (The second case is there because a
   reader may merely seek over its last bytes: a cut that falls into those leaves every one of its reads served.  The theorems
   do not say which case holds.) *)
From VB Require Import Base IR Sem Tables BaseFacts StreamFacts Roundtrip ClassRT FileModel TermFacts StreamLevel PrefixRT ObjLoop.
From VB Require Import Classes Consts Common CodecDefs Codec FileDefs TermEq StreamRT.
Local Open Scope Z_scope.

(* the complete stream that a cut stream was cut from *)
Definition extend (lost : list Z) (i : istream) : istream :=
  {| s_before := s_before i; s_after := s_after i ++ lost; s_cur := s_cur i; s_pos := s_pos i; s_size := s_size i + zlen lost;
     s_good := s_good i; s_eof := s_eof i; s_sticky := s_sticky i; s_open := s_open i |}.

Lemma nstream_wstream i : nstream i -> wstream i /\ 0 <= s_pos i.
Proof. exact (nstream_pstream i). Qed.

Lemma extend_at lost d p g e o : 0 <= p <= zlen d -> extend lost (ustream_at d p g e o) = ustream_at (d ++ lost) p g e o.
Proof.
  intros Hp. unfold extend, ustream_at, ztake, zdrop. cbn. rewrite firstn_app, skipn_app, zlen_app.
  replace (Z.to_nat p - length d)%nat with 0%nat by (unfold zlen in Hp; lia). cbn [firstn skipn]. rewrite app_nil_r. reflexivity.
Qed.

Lemma extend_ext lost i : nstream i -> ext lost i (extend lost i) /\ nstream (extend lost i).
Proof.
  intros Hn. destruct (nstream_at i Hn) as (d & p & g & e & o & Hp & ->). rewrite extend_at by exact Hp.
  pose proof (zlen_nonneg lost). split; [apply at_ext; lia|apply nstream_ustream; rewrite zlen_app; lia].
Qed.

Lemma atend_ext X j' j : atend X j' j -> s_pos j = s_pos j' -> ext X j' j.
Proof. intros (W' & W & D & Sz & Pe & Pj & G & E) P. unfold ext. auto 10. Qed.

Lemma obj_end_p : forall fuel i acc count, pstream i -> s_pos i = s_size i -> OL (S fuel) i acc count = (acc, count, EndException).
Proof. exact (loop_at_end cs scan_p default_cap factory_table C_ohb _ _ scan_sig_nonzero ohb_reader_shape). Qed.

Lemma ohb_seeks_ok : seeks_ok cs (prog_of cs C_ohb M_read) = true.
Proof. exact (ohb_seeks cs _ ohb_reader_shape). Qed.

(* put `lost` back (extend): obj_step_parts speaks of the complete stream, cut_iteration carries its two decodes over to the cut
   one.  Two units of fuel: one iteration for o, one that meets the end *)
Lemma cut_object : forall o part lost fuel i' acc count, wobj_ok o -> w_bytes o = part ++ lost -> lost <> [] ->
  nstream i' -> s_good i' = true -> s_after i' = part ->
  fst (fst (OL (S (S fuel)) i' acc count)) = acc \/
  exists d, same_obj o d /\ fst (fst (OL (S (S fuel)) i' acc count)) = acc ++ [d].
Proof.
  intros o part lost fuel i' acc count Ho Hb Hl Hn' Hg' Ha'. destruct (extend_ext lost i' Hn') as [Hext Hn].
  assert (Ha : s_after (extend lost i') = w_bytes o ++ []) by (rewrite app_nil_r, Hb; cbn [extend s_after]; rewrite Ha'; reflexivity).
  destruct (obj_step_parts o _ [] Ho Hn Hg' Ha) as (h & i1 & r' & i3 & Hpk & Hho & Hht & Hdec3 & Hn3 & _ & Ha3 & Hsame & _).
  destruct (wobj_known o h Ho Hho Hht) as (Hfac & Hnz & Hsz0 & Hle).
  destruct (cut_iteration cs scan_p default_cap factory_table C_ohb fid_objectSize fid_objectType
              scan_rules_back_at_most_3 scan_sig_nonzero ohb_reader_shape factory_classes_ok lost i' _ fuel acc count _ _ _ _ _ _
              Hl Hext (proj2 (nstream_pstream i' Hn')) (proj1 (pk_read Hpk)) (pk_pos Hpk) Hfac Hnz Hsz0 Hle Hdec3 (nstream_at_end i3 Hn3 Ha3))
    as [E|E]; [left; exact E|right; exists (w_cls o, r'); split; [exact Hsame|exact E]].
Qed.

Lemma consumes_cut n b os : consumes n b os -> forall o part lost fuel i acc count, wobj_ok o ->
  w_bytes o = part ++ lost -> lost <> [] ->
  nstream i -> s_good i = true -> s_after i = b ++ part -> (n + 1 < fuel)%nat ->
  exists ds, fst (fst (OL fuel i acc count)) = acc ++ ds /\ (Forall2 same_obj os ds \/ Forall2 same_obj (os ++ [o]) ds).
Proof.
  intros H o part lost fuel i acc count Ho Hb Hl Hi Hg Ha Hf. replace fuel with (n + S (S (fuel - n - 2)))%nat by lia.
  destruct (H (S (S (fuel - n - 2))) i part acc count Hi Hg Ha) as (ds & i' & D & Hi' & Hg' & Ha' & ->).
  destruct (cut_object o part lost (fuel - n - 2) i' (acc ++ ds) (fold_left (fun c o => next_count o c) os count) Ho Hb Hl Hi' Hg' Ha')
    as [E|(d & Hd & E)].
  - exists ds. split; [exact E|left; exact D].
  - exists (ds ++ [d]). split; [rewrite E, app_assoc; reflexivity|].
    right. apply Forall2_app; [exact D|constructor; [exact Hd|constructor]].
Qed.

Theorem stream_prefix_gen : forall pre o part lost fuel i acc count, Forall wobj_ok pre -> wobj_ok o ->
  w_bytes o = part ++ lost -> lost <> [] ->
  nstream i -> s_good i = true -> s_after i = concat (map w_bytes pre) ++ part -> (length pre + 1 < fuel)%nat ->
  exists ds, fst (fst (OL fuel i acc count)) = acc ++ ds /\ (Forall2 same_obj pre ds \/ Forall2 same_obj (pre ++ [o]) ds).
Proof. intros pre o part lost fuel i acc count Hall. exact (consumes_cut _ _ _ (objs_consumed pre Hall) o part lost fuel i acc count). Qed.

Theorem stream_prefix : forall pre o part lost, Forall wobj_ok pre -> wobj_ok o -> w_bytes o = part ++ lost -> lost <> [] ->
  let U := concat (map w_bytes pre) ++ part in
  exists ds, fst (fst (OL (2 * length U + 16) (mk_ustream U) [] 0)) = ds /\
    (Forall2 same_obj pre ds \/ Forall2 same_obj (pre ++ [o]) ds).
Proof.
  intros pre o part lost Hall Ho Hb Hl U. rewrite <- (parser_fuel default_cap U (2 * length U + 16 + (length pre + 2))) by lia.
  apply (stream_prefix_gen pre o part lost (2 * length U + 16 + (length pre + 2)) (mk_ustream U) [] 0 Hall Ho Hb Hl (nstream_mk U) eq_refl eq_refl). lia.
Qed.

(* non-vacuity, computed: a CanMessage followed by the first 0, 20 or 47 bytes of another one — one object is delivered *)
Definition prefix_example_b : bool :=
  match ex_obj "CanMessage" 1 48 48 with
  | Some o => forallb (fun k =>
      let U := w_bytes o ++ firstn k (w_bytes o) in
      Nat.eqb (length (fst (fst (OL (2 * length U + 16) (mk_ustream U) [] 0)))) 1) [0; 20; 47]%nat
  | None => false end.
Example prefix_example : prefix_example_b = true.
Proof. vm_compute. reflexivity. Qed.
