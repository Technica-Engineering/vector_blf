(* Inst/Common.v — what every instance speaks of: the regenerated class table (cs), classes by name, and a list of classes minus a
   committed exception list, with the step from a sweep over such a list to each of its members. *)
From VB Require Import Base IR Sem Tables.
From VB Require Import Classes Consts.
Local Open Scope Z_scope.

Definition cs := all_classes.

(* -1 on a miss: no table knows a class -1.  Trap: a misspelt entry of an exception list (rt_exception_names, ctor_exception_names)
   becomes -1 and excludes nothing, so that the sweep over the remaining classes still includes the class that was meant *)
Definition class_of_name (n : string) : Z :=
  match find (fun p => String.eqb (snd p) n) class_names with Some p => fst p | None => -1 end.
Definition name_of_class (c : Z) : string :=
  match find (fun p => fst p =? c) class_names with Some p => snd p | None => ""%string end.

Definition minus (l ex : list Z) : list Z := filter (fun c => negb (existsb (Z.eqb c) ex)) l.

Lemma in_minus l ex c : In c l -> ~ In c ex -> In c (minus l ex).
Proof.
  intros Hl Hex. unfold minus. apply filter_In. split; [exact Hl|].
  apply negb_true_iff, not_true_iff_false. rewrite existsb_eqb_In. exact Hex.
Qed.

Lemma minus_incl l ex c : In c (minus l ex) -> In c l.
Proof. unfold minus. intros H. apply filter_In in H. apply H. Qed.

Lemma forallb_minus (P : Z -> bool) l ex : forallb P (minus l ex) = true ->
  forall c, In c l -> ~ In c ex -> P c = true.
Proof. intros H c H1 H2. exact (proj1 (forallb_forall _ _) H c (in_minus _ _ _ H1 H2)). Qed.

(* Roundtrip's and ClassRT's premise cap_ge; 2^28 is the bound Roundtrip.shape_ok puts on the bytes of a vector member *)
Lemma cap_ok : 2 ^ 28 <= default_cap.
Proof. vm_compute. discriminate. Qed.
