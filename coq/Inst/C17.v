(* Inst/C17.v — C17: the assignments of type codes to classes (File::createObject, the table documented in File.h, the pinned format,
   the constructors) as functions over the regenerated tables, and the sweeps that say they agree. *)
From VB Require Import Base IR Sem Tables Roundtrip FreshFacts.
From VB Require Import Classes Consts Common.
Local Open Scope Z_scope.

(* class id 0 in the three generated tables stands for no class (in factory_table: a case that creates no object) *)
Definition no_zero (o : option Z) : option Z := match o with Some 0 => None | x => x end.
(* File::createObject as a function of the type code: the class it instantiates, if any *)
Definition factory (code : Z) : option Z := no_zero (lookup code factory_table).
(* the class the format documentation (File.h) assigns to a code *)
Definition format (code : Z) : option Z := no_zero (lookup code format_table).

Definition ctor_code (c : Z) : option Z :=
  match fresh cs c fid_objectType with VInt z => Some z | _ => None end.

Definition ctor_ok (c : Z) : bool :=
  match ctor_code c with Some code => opt_z_eqb (factory code) (Some c) | None => false end.

(* a default object is written under its constructor code, the factory maps the written code back
   to the class, and decoding the bytes into a fresh object of that class reproduces the code
   (objectType is the 4 bytes at offset 12 of the base header: 4 + 2 + 2 + 4, StreamRT.hdr_widths) *)
Definition written_code_ok (c : Z) : bool :=
  match ctor_code c, enc cs default_cap c (fresh cs c) with
  | Some code, Ok (_, bytes) =>
      (le_dec (ztake 4 (zdrop 12 bytes)) =? code) &&
      match factory code with
      | Some c' =>
          (c' =? c) &&
          match dec cs scan_p default_cap c' (fresh cs c') (mk_ustream bytes) with
          | Ok (s', _) => match s' fid_objectType with VInt z => z =? code | _ => false end
          | Err _ => false
          end
      | None => false
      end
  | _, _ => false
  end.

(* committed exception lists (by class name): each entry has a refutation below *)
Definition ctor_exception_names : list string := ["EnvironmentVariable"%string].
Definition init_exception_names : list string := [].

Definition ctor_exceptions := map class_of_name ctor_exception_names.
Definition init_exceptions := map class_of_name init_exception_names.

Lemma factory_format_keys :
  forallb (fun k => opt_z_eqb (factory k) (format k)) (map fst factory_table ++ map fst format_table) = true.
Proof. vm_compute. reflexivity. Qed.

Lemma factory_total : forall code, factory code = format code.
Proof.
  intros code. apply opt_z_eqb_eq. revert code. apply (forall_keys _ _ factory_format_keys). intros k Hk.
  unfold factory, format.
  rewrite (lookup_not_in k factory_table), (lookup_not_in k format_table); [reflexivity| |];
    intros Hin; apply Hk; apply in_or_app; [right|left]; exact Hin.
Qed.

(* the factory and the format table are the format's own assignment as pinned in /verif (translator/format_codes.json), not merely each other:
   every pinned code yields exactly the pinned class, and a class the format knows is created under no other code *)
Definition pinned (code : Z) : option Z := no_zero (lookup code pinned_format).
Definition pinned_ok : bool :=
  forallb (fun p => opt_z_eqb (factory (fst p)) (pinned (fst p))) pinned_format &&
  forallb (fun p => (snd p =? 0) || negb (existsb (fun q => snd q =? snd p) pinned_format) ||
                    existsb (fun q => (fst q =? fst p) && (snd q =? snd p)) pinned_format) factory_table.
Lemma factory_is_pinned_format : pinned_ok = true.
Proof. vm_compute. reflexivity. Qed.

(* gate: translator/blf2coq.py writes false when File::createObject is not a switch over ObjectType whose every case is
   `obj = new X(); break;` or `break;` (parse_factory) *)
Lemma factory_recognised_ok : factory_recognised = true.
Proof. reflexivity. Qed.

Lemma factory_outside : forall code, ~ In code (map fst factory_table) -> factory code = None.
Proof. intros code H. unfold factory. rewrite lookup_not_in; [reflexivity|exact H]. Qed.

Lemma ctor_all_b : forallb ctor_ok (minus object_classes ctor_exceptions) = true.
Proof. vm_compute. reflexivity. Qed.
Lemma ctor_all : forall c, In c object_classes -> ~ In c ctor_exceptions -> ctor_ok c = true.
Proof. exact (forallb_minus _ _ _ ctor_all_b). Qed.

Lemma written_all_b : forallb written_code_ok (minus object_classes ctor_exceptions) = true.
Proof. vm_compute. reflexivity. Qed.
Lemma written_all : forall c, In c object_classes -> ~ In c ctor_exceptions -> written_code_ok c = true.
Proof. exact (forallb_minus _ _ _ written_all_b). Qed.

Lemma init_all_b : forallb (fun c => defined_b (ids cs c) (fresh cs c)) (minus object_classes init_exceptions) = true.
Proof. vm_compute. reflexivity. Qed.
Lemma init_all : forall c, In c object_classes -> ~ In c init_exceptions -> defined_on (ids cs c) (fresh cs c).
Proof. intros c H1 H2. apply defined_b_ok. exact (forallb_minus _ _ _ init_all_b c H1 H2). Qed.

(* the committed exception, refuted (a known finding) *)
Lemma ctor_refuted_EnvironmentVariable :
  let c := class_of_name "EnvironmentVariable" in ctor_code c = Some 0 /\ factory 0 = None.
Proof. vm_compute. split; reflexivity. Qed.
