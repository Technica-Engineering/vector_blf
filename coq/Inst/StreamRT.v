(* Inst/StreamRT.v — C01 at the level of the uncompressed stream: what the write worker appends for a list of objects
   (the concatenation of their encodings) is parsed back by the parser stage of the file model (FileModel.obj_loop)
   into exactly those objects, in order, each once, and the end is reported after the last one. *)
From VB Require Import Base IR Sem Tables BaseFacts StreamFacts EvalFacts Roundtrip ClassRT CallFacts FreshFacts FileModel TermFacts StreamLevel ObjLoop.
From VB Require Import Classes Consts Common CodecDefs Codec FileDefs TermEq.
Local Open Scope Z_scope.

(* the members of the 16-byte base header, written first by every regular class and read by ObjectHeaderBase::read *)
Definition hdr_fields : list Z :=
  match Rp C_ohb with
  | PScan (PRead a (PRead b (PRead c (PRead d PEnd)))) => [sp_field scan_p; a; b; c; d]
  | _ => []
  end.
Definition W_of (fs : list Z) (k : prog) : prog := fold_right PWrite k fs.
Definition W_ohb : prog := W_of hdr_fields PEnd.

Definition header_ok (c : Z) : bool :=
  match strip_writes hdr_fields (emit_of c) with Some _ => true | None => false end.

Lemma header_ok_all : forallb header_ok (minus object_classes rt_exceptions) = true.
Proof. vm_compute. reflexivity. Qed.

Lemma hdr_fields_eq : hdr_fields = [sp_field scan_p; fid_headerSize; fid_headerVersion; fid_objectSize; fid_objectType].
Proof. vm_compute. reflexivity. Qed.

Lemma emit_header c : In c object_classes -> ~ In c rt_exceptions -> exists k, emit_of c = W_of hdr_fields k.
Proof.
  intros Hc Hex. pose proof (forallb_minus header_ok _ _ header_ok_all _ Hc Hex) as Hh. unfold header_ok in Hh.
  destruct (strip_writes hdr_fields (emit_of c)) as [k|] eqn:Hstrip; [|discriminate]. exists k. exact (strip_spec _ _ _ Hstrip).
Qed.

Lemma emitted_W_ohb call s : emitted cs call W_ohb s = hdr_fields.
Proof. unfold W_ohb, W_of. rewrite emitted_writes. apply app_nil_r. Qed.

Lemma ohb_pair : pair_wr cs scan_p [] [] W_ohb (Rp C_ohb) = true.
Proof. vm_compute. reflexivity. Qed.
Lemma ohb_fresh_wf : fresh_wf_b cs C_ohb = true.
Proof. vm_compute. reflexivity. Qed.
Lemma ohb_fresh_defined : defined_b hdr_fields (fresh cs C_ohb) = true.
Proof. vm_compute. reflexivity. Qed.

Lemma hdr_size_type : In fid_objectSize hdr_fields /\ In fid_objectType hdr_fields.
Proof. rewrite hdr_fields_eq. cbn [In]. split; [do 3 right|do 4 right]; left; reflexivity. Qed.

(* ObjectHeaderBase::read on a stream that stands at an encoded header: pair_sound on the header's own program W_ohb *)
Lemma header_decode : forall s' hdr i rest', wf_state cs s' -> defined_on hdr_fields s' ->
  s' (sp_field scan_p) = VInt (sp_sig scan_p) ->
  (forall call', run_w cs call' default_cap W_ohb s' no_locals = Ok (s', hdr)) ->
  nstream i -> s_after i = hdr ++ rest' ->
  exists h i1, dec cs scan_p default_cap C_ohb (fresh cs C_ohb) i = Ok (h, i1) /\ nstream i1 /\ s_after i1 = rest' /\
    (s_good i = true -> s_good i1 = true) /\ h fid_objectSize = s' fid_objectSize /\ h fid_objectType = s' fid_objectType.
Proof.
  intros s' hdr i rest' Hw Hd Hsig Hrun Hi Ha.
  pose proof (defined_b_ok _ _ ohb_fresh_defined) as Hfd.
  rewrite <- (emitted_W_ohb (callf cs C_ohb) s') in Hd, Hfd.
  destruct (pair_sound cs (callf cs C_ohb) scan_p default_cap cap_ok sig_ok W_ohb [] [] (Rp C_ohb) s' hdr ohb_pair (Hrun _)
              (M_sound_nil cs s') Hw Hd Hsig (fresh cs C_ohb) i rest' Hi Ha (fun f (F : In f []) => match F with end)
              (fresh_wf cs C_ohb ohb_fresh_wf) Hfd)
    as (h & i1 & Hr & (P1 & P2 & P3 & _) & Pg).
  rewrite emitted_W_ohb, app_nil_r in P3. destruct hdr_size_type as [I1 I2].
  exists h, i1. exact (conj Hr (conj P1 (conj P2 (conj Pg (conj (P3 _ I1) (P3 _ I2)))))).
Qed.

Lemma hdr_widths : map (width_of cs) hdr_fields = map Some [4; 2; 2; 4; 4].
Proof. vm_compute. reflexivity. Qed.

(* hdr is what ObjectHeaderBase::write emits for the header members of s', a state header_decode accepts *)
Definition header_bytes (s' : state) (hdr : list Z) : Prop :=
  wf_state cs s' /\ defined_on hdr_fields s' /\ s' (sp_field scan_p) = VInt (sp_sig scan_p) /\
  forall call', run_w cs call' default_cap W_ohb s' no_locals = Ok (s', hdr).

Lemma hdr_len s' hdr : header_bytes s' hdr -> zlen hdr = 16.
Proof. intros (_ & _ & _ & H). exact (writes_len cs _ default_cap _ _ _ _ _ (H (callf cs C_ohb)) hdr_widths). Qed.

Lemma W_ohb_run call s a b c d e : s (sp_field scan_p) = VInt a -> s fid_headerSize = VInt b -> s fid_headerVersion = VInt c ->
  s fid_objectSize = VInt d -> s fid_objectType = VInt e ->
  run_w cs call default_cap W_ohb s no_locals =
  Ok (s, le_enc 4 (a mod 2 ^ 32) ++ le_enc 2 (b mod 2 ^ 16) ++ le_enc 2 (c mod 2 ^ 16) ++ le_enc 4 (d mod 2 ^ 32) ++ le_enc 4 (e mod 2 ^ 32)).
Proof.
  intros Ha Hb Hc Hd He. unfold W_ohb, W_of. rewrite hdr_fields_eq. cbn [fold_right run_w]. rewrite Ha, Hb, Hc, Hd, He.
  reflexivity.
Qed.

(* the loop's look at the next header (File::uncompressedFile2ReadWriteQueue: ohb.read, then seekg(-ohb.calculateHeaderSize(),
   cur)): h is read from i over the 16 bytes at the cursor, the stream stays good, and after the seek back from i1 the same bytes lie ahead as in i *)
Record peeked (i : istream) (h : state) (i1 : istream) : Prop := {
  pk_read : dec cs scan_p default_cap C_ohb (fresh cs C_ohb) i = Ok (h, i1) /\ s_good i1 = true;
  pk_pos : s_pos i1 = s_pos i + 16;
  pk_back : nstream (s_seek (-16) i1) /\ s_good (s_seek (-16) i1) = true /\ s_after (s_seek (-16) i1) = s_after i }.
Arguments pk_read {i h i1}.
Arguments pk_pos {i h i1}.
Arguments pk_back {i h i1}.

Lemma header_peek : forall s' hdr i rest, header_bytes s' hdr -> nstream i -> s_good i = true -> s_after i = hdr ++ rest ->
  exists h i1, peeked i h i1 /\ h fid_objectSize = s' fid_objectSize /\ h fid_objectType = s' fid_objectType.
Proof.
  intros s' hdr i rest Hb Hi Hg Ha. pose proof (hdr_len _ _ Hb) as Hlen. destruct Hb as (Hw & Hd & Hsig & Hrun).
  destruct (header_decode _ _ _ _ Hw Hd Hsig Hrun Hi Ha) as (h & i1 & Hdec1 & Hn1 & Ha1 & Hg1 & Hho & Hht).
  assert (Hdata : s_data i1 = s_data i) by (unfold dec in Hdec1; eapply run_r_data; eauto).
  destruct (seek_back_restores i i1 hdr rest Hi Hn1 Hdata Ha Ha1) as (Hn2 & Ha2 & Hg2 & _).
  pose proof (consumed_pos i i1 hdr rest Hi Hn1 Hdata Ha Ha1) as Hp1.
  rewrite Hlen in *.
  specialize (Hg1 Hg). rewrite Hg1 in Hg2. rewrite <- Ha in Ha2. exists h, i1.
  exact (conj (Build_peeked _ _ _ (conj Hdec1 Hg1) Hp1 (conj Hn2 (conj Hg2 Ha2))) (conj Hho Hht)).
Qed.

Record wobj := { w_cls : Z; w_st : state; w_st' : state; w_bytes : list Z; w_code : Z; w_osz : Z; w_sz0 : Z }.

(* an object as the application hands it to File::write: a regular class, an API-expressible state, a type code the factory
   maps back to the class, and a declared size not below what a default-constructed object of the class computes
   (false only for objects written in an older layout version than the library's default) *)
Definition wobj_ok (o : wobj) : Prop :=
  In (w_cls o) object_classes /\ ~ In (w_cls o) rt_exceptions /\
  api_state (w_cls o) (w_st o) /\ enc cs default_cap (w_cls o) (w_st o) = Ok (w_st' o, w_bytes o) /\
  w_st' o fid_objectType = VInt (w_code o) /\ lookup_factory factory_table (w_code o) = w_cls o /\ w_cls o <> 0 /\
  w_st' o fid_objectSize = VInt (w_osz o) /\ osize cs (w_cls o) (fresh cs (w_cls o)) = Ok (w_sz0 o) /\ w_sz0 o <= Z.max (w_osz o) 16.

Definition same_obj (o : wobj) (d : delivered) : Prop :=
  fst d = w_cls o /\
  (forall f, In f (emitted cs (callf cs (w_cls o)) (emit_of (w_cls o)) (w_st' o)) -> snd d f = w_st' o f) /\
  (forall f, ~ In f (emitted cs (callf cs (w_cls o)) (emit_of (w_cls o)) (w_st' o)) -> snd d f = fresh cs (w_cls o) f).

(* the count' of FileModel.obj_loop.  The factory maps type 115 to RestorePointContainer, a class in rt_exception_names, and
   wobj_ok excludes those: no wobj_ok object has that type, each one is counted *)
Definition next_count (o : wobj) (count : Z) : Z := if w_code o =? 115 then count else (count + 1) mod 2 ^ 32.

Definition counted (o : wobj) : bool := negb (w_code o =? 115).

Notation OL := (obj_loop cs scan_p default_cap factory_table C_ohb fid_objectSize fid_objectType).

(* what the loop's known-type branch asks of the object, in terms of the size and the type its header read saw *)
Lemma wobj_known o h : wobj_ok o -> geti h fid_objectSize = w_osz o -> geti h fid_objectType = w_code o ->
  lookup_factory factory_table (geti h fid_objectType) = w_cls o /\ w_cls o <> 0 /\
  osize cs (w_cls o) (fresh cs (w_cls o)) = Ok (w_sz0 o) /\ w_sz0 o <= Z.max (geti h fid_objectSize) 16.
Proof. intros (_ & _ & _ & _ & _ & Hfac & Hnz & _ & Hsz0 & Hle) -> ->. auto. Qed.

Lemma wobj_header o : wobj_ok o -> w_st' o fid_objectSize = VInt (w_osz o) /\ w_st' o fid_objectType = VInt (w_code o).
Proof. intros H. split; apply H. Qed.

(* the parts of one iteration on a stream that holds the whole object: the look at the header, which sees the size and the
   type written, and the object's own reader run from where the header began, which consumes the object and returns it *)
Lemma obj_step_parts : forall o i rest, wobj_ok o -> nstream i -> s_good i = true -> s_after i = w_bytes o ++ rest ->
  exists h i1 r' i3, peeked i h i1 /\ geti h fid_objectSize = w_osz o /\ geti h fid_objectType = w_code o /\
    dec cs scan_p default_cap (w_cls o) (fresh cs (w_cls o)) (s_seek (-16) i1) = Ok (r', i3) /\
    nstream i3 /\ s_good i3 = true /\ s_after i3 = rest /\ same_obj o (w_cls o, r') /\ geti r' fid_objectType = w_code o.
Proof.
  intros o i rest Ho Hi Hg Ha. destruct (wobj_header o Ho) as [Hosz Htype]. destruct Ho as (Hc & Hex & Hapi & Henc & _).
  destruct (object_written _ Hc Hex _ _ _ Hapi Henc) as (Hrunw & Hws' & Hds' & Hsig').
  destruct (emit_header _ Hc Hex) as [k Hstrip].
  assert (Hem : forall f, In f hdr_fields -> In f (emitted cs (callf cs (w_cls o)) (emit_of (w_cls o)) (w_st' o)))
    by (intros f Hf; rewrite Hstrip; unfold W_of; rewrite emitted_writes; apply in_or_app; left; exact Hf).
  rewrite Hstrip in Hrunw. destruct (run_w_writes cs _ default_cap _ _ _ _ _ Hrunw) as (hdr & rb & Ebytes & Hhdr).
  pose proof Ha as Ha0. rewrite Ebytes, <- app_assoc in Ha0.
  destruct (header_peek _ _ _ _ (conj Hws' (conj (fun f Hf => Hds' f (Hem f Hf)) (conj Hsig' Hhdr))) Hi Hg Ha0) as (h & i1 & Hpk & Hho & Hht).
  destruct (pk_back Hpk) as (Hn2 & Hg2 & Ha2). rewrite Ha in Ha2.
  destruct (object_rt_stream _ Hc Hex _ _ _ Hapi Henc _ rest Hn2 Ha2) as (r' & i3 & Hdec3 & Hn3 & Ha3 & Hg3 & Hsame).
  assert (Hrt : r' fid_objectType = VInt (w_code o)) by (rewrite <- Htype; apply Hsame, Hem, hdr_size_type).
  exists h, i1, r', i3. unfold geti. rewrite Hho, Hht, Hosz, Htype, Hrt. unfold same_obj. auto 12.
Qed.

Lemma obj_step : forall o fuel i rest acc count, wobj_ok o -> nstream i -> s_good i = true -> s_after i = w_bytes o ++ rest ->
  exists d i', same_obj o d /\ nstream i' /\ s_good i' = true /\ s_after i' = rest /\
    OL (S fuel) i acc count = OL fuel i' (acc ++ [d]) (next_count o count).
Proof.
  intros o fuel i rest acc count Ho Hi Hg Ha.
  destruct (obj_step_parts o i rest Ho Hi Hg Ha) as (h & i1 & r' & i3 & Hpk & Hho & Hht & Hdec3 & Hn3 & Hg3 & Ha3 & Hsame & Hrt).
  destruct (pk_read Hpk) as [Hdec1 Hg1]. destruct (wobj_known o h Ho Hho Hht) as (Hfac & Hnz & Hsz0 & Hle).
  exists (w_cls o, r'), i3. rewrite (iter_known fuel acc count Hdec1 Hg1 Hfac Hnz Hsz0 Hle Hdec3 Hg3), Hrt. auto.
Qed.

Lemma obj_end : forall fuel i acc count, nstream i -> s_after i = [] -> OL (S fuel) i acc count = (acc, count, EndException).
Proof.
  intros fuel i acc count Hi Ha. apply (loop_at_end cs scan_p default_cap factory_table C_ohb _ _ scan_sig_nonzero ohb_reader_shape).
  - apply nstream_pstream. exact Hi.
  - apply nstream_at_end; assumption.
Qed.

(* n iterations of the parser, begun on a good stream that stands before b followed by whatever, deal with exactly b:
   they deliver the objects os as written, count them, and leave a good stream that stands before the rest *)
Definition consumes (n : nat) (b : list Z) (os : list wobj) : Prop :=
  forall fuel i rest acc count, nstream i -> s_good i = true -> s_after i = b ++ rest ->
  exists ds i', Forall2 same_obj os ds /\ nstream i' /\ s_good i' = true /\ s_after i' = rest /\
    OL (n + fuel) i acc count = OL fuel i' (acc ++ ds) (fold_left (fun c o => next_count o c) os count).

Lemma consumes_nil : consumes 0 [] [].
Proof. intros fuel i rest acc count Hi Hg Ha. exists [], i. rewrite app_nil_r. split; [constructor|auto]. Qed.

Lemma consumes_app n m b b' os os' : consumes n b os -> consumes m b' os' -> consumes (n + m) (b ++ b') (os ++ os').
Proof.
  intros H H' fuel i rest acc count Hi Hg Ha. rewrite <- app_assoc in Ha.
  destruct (H (m + fuel)%nat i _ acc count Hi Hg Ha) as (ds & i1 & D & Hi1 & Hg1 & Ha1 & E).
  destruct (H' fuel i1 rest (acc ++ ds) (fold_left (fun c o => next_count o c) os count) Hi1 Hg1 Ha1) as (ds' & i2 & D' & Hi2 & Hg2 & Ha2 & E').
  exists (ds ++ ds'), i2. rewrite <- Nat.add_assoc, E, E', fold_left_app, app_assoc.
  split; [apply Forall2_app; assumption|auto].
Qed.

Lemma consumes_known o : wobj_ok o -> consumes 1 (w_bytes o) [o].
Proof.
  intros Ho fuel i rest acc count Hi Hg Ha. destruct (obj_step o fuel i rest acc count Ho Hi Hg Ha) as (d & i' & Hd & H).
  exists [d], i'. split; [constructor; [exact Hd|constructor]|exact H].
Qed.

Lemma objs_consumed objs : Forall wobj_ok objs -> consumes (length objs) (concat (map w_bytes objs)) objs.
Proof. induction 1 as [|o r Ho _ IH]; [exact consumes_nil|exact (consumes_app 1 _ _ _ [o] _ (consumes_known o Ho) IH)]. Qed.

(* the fuel is the one FileModel.read_session_on gives the parser stage; parser_fuel takes the surplus off *)
Lemma consumes_session n b os : consumes n b os ->
  exists ds, Forall2 same_obj os ds /\
    OL (2 * length b + 16) (mk_ustream b) [] 0 = (ds, fold_left (fun c o => next_count o c) os 0, EndException).
Proof.
  intros H. destruct (H (16 + 2 * length b)%nat (mk_ustream b) [] [] 0 (nstream_mk b) eq_refl (eq_sym (app_nil_r b)))
    as (ds & i' & D & Hi' & _ & Ha' & E).
  exists ds. split; [exact D|]. rewrite <- (parser_fuel default_cap b (n + (16 + 2 * length b))), E by lia.
  apply obj_end; assumption.
Qed.

(* non-vacuity: a default-constructed object as a written object *)
Definition ex_obj (name : string) (code osz sz0 : Z) : option wobj :=
  let c := class_of_name name in
  match enc cs default_cap c (fresh cs c) with
  | Ok (s', b) => Some {| w_cls := c; w_st := fresh cs c; w_st' := s'; w_bytes := b; w_code := code; w_osz := osz; w_sz0 := sz0 |}
  | Err _ => None
  end.

Lemma ex_obj_code name code osz sz0 o : ex_obj name code osz sz0 = Some o -> w_code o = code.
Proof. unfold ex_obj. destruct (enc cs default_cap _ _) as [[s' b]|]; [intros [= <-]; reflexivity|discriminate]. Qed.

(* a default-constructed object is an api_state if three facts hold, each a closed computation for a given class (ex_can_ok);
   the last one leaves pre_guard nothing to ask *)
Lemma fresh_api c : In c object_classes -> ~ In c rt_exceptions ->
  defined_b (ClassRT.wfields (emit_of c) ++ deriv_conts cs (pre_of c)) (fresh cs c) = true ->
  fresh cs c (sp_field scan_p) = VInt (sp_sig scan_p) ->
  (forall fe, In fe (pre_of c) -> derivation cs fe = None) ->
  api_state c (fresh cs c).
Proof.
  intros Hc Hex Hd Hs Hder.
  split; [apply (rt_parts c Hc Hex)|]. split; [apply defined_b_ok; exact Hd|]. split; [exact Hs|].
  intros fe g t cnt Hin Hdv. rewrite (Hder fe Hin) in Hdv. discriminate.
Qed.

Definition ex_can : Z := class_of_name "CanMessage".
Example ex_can_ok : match ex_obj "CanMessage" 1 48 48 with Some o => wobj_ok o | None => False end.
Proof.
  unfold ex_obj. fold ex_can.
  assert (Hv : match enc cs default_cap ex_can (fresh cs ex_can) with
               | Ok (s1, _) => s1 fid_objectType = VInt 1 /\ s1 fid_objectSize = VInt 48 | Err _ => False end)
    by (vm_compute; split; reflexivity).
  destruct (enc cs default_cap ex_can (fresh cs ex_can)) as [[s' b]|e] eqn:E; [destruct Hv as [Ht1 Ht2]|contradiction].
  assert (Hc : In ex_can object_classes) by (apply existsb_eqb_In; vm_compute; reflexivity).
  assert (Hex : ~ In ex_can rt_exceptions) by (vm_compute; intuition discriminate).
  assert (Hapi : api_state ex_can (fresh cs ex_can)).
  { apply fresh_api; [exact Hc|exact Hex|vm_compute; reflexivity|vm_compute; reflexivity|].
    intros fe Hin. vm_compute in Hin. destruct Hin as [<-|[<-|[]]]; reflexivity. }
  unfold wobj_ok. cbn [w_cls w_st w_st' w_bytes w_code w_osz w_sz0].
  split; [exact Hc|]. split; [exact Hex|]. split; [exact Hapi|]. split; [exact E|]. split; [exact Ht1|].
  split; [vm_compute; reflexivity|]. split; [vm_compute; discriminate|]. split; [exact Ht2|]. split; [vm_compute; reflexivity|].
  intros C; vm_compute in C; discriminate.
Qed.

Example ex_stream : match ex_obj "CanMessage" 1 48 48 with
  | Some o => exists ds, Forall2 same_obj [o; o] ds /\
      snd (obj_loop cs scan_p default_cap factory_table C_ohb fid_objectSize fid_objectType
             (2 * length (w_bytes o ++ w_bytes o ++ []) + 16) (mk_ustream (w_bytes o ++ w_bytes o ++ [])) [] 0) = EndException
  | None => False end.
Proof.
  pose proof ex_can_ok as H. destruct (ex_obj "CanMessage" 1 48 48) as [o|]; [|exact H].
  destruct (consumes_session _ _ _ (objs_consumed [o; o] (Forall_cons _ H (Forall_cons _ H (Forall_nil _))))) as (ds & H1 & H2).
  exists ds. split; [exact H1|]. cbn [map concat] in H2. rewrite H2. reflexivity.
Qed.

Lemma next_count_fold : forall objs c,
  fold_left (fun c o => next_count o c) objs (c mod 2 ^ 32) = (c + Z.of_nat (length (filter counted objs))) mod 2 ^ 32.
Proof.
  induction objs as [|o r IH]; intros c; cbn [fold_left filter length].
  - rewrite Z.add_0_r. reflexivity.
  - unfold next_count at 2, counted at 1. destruct (w_code o =? 115); cbn [negb].
    + apply IH.
    + rewrite Zplus_mod_idemp_l. rewrite IH. cbn [length]. f_equal. lia.
Qed.

(* the parser's currentObjectCount after the stream of any list of well-formed objects: the number of those that `counted`
   keeps, modulo 2^32 (it keeps every wobj_ok object, by the argument at next_count: wobj_ok excludes the class the factory maps 115
   to) — the value write_session puts into the header
   (C05_header) when each object is handed to it tagged `counted o` (counted_tags) *)
Theorem stream_count : forall objs, Forall wobj_ok objs ->
  let U := concat (map w_bytes objs) in
  snd (fst (OL (2 * length U + 16) (mk_ustream U) [] 0)) = Z.of_nat (length (filter counted objs)) mod 2 ^ 32.
Proof.
  intros objs Hall U. destruct (consumes_session _ _ _ (objs_consumed objs Hall)) as (ds & _ & E). fold U in E. rewrite E. cbn [fst snd].
  change 0 with (0 mod 2 ^ 32) at 1. rewrite next_count_fold. reflexivity.
Qed.

Lemma counted_tags objs : length (filter snd (map (fun o => (w_bytes o, counted o)) objs)) = length (filter counted objs).
Proof. exact (filter_map_length _ snd objs). Qed.
