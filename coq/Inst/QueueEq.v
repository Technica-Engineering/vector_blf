(* Inst/QueueEq.v — translation validation by proof, on every run: the methods translated from
   ObjectQueue.cpp (Gen/Queue.v), run by the interpreter of Lib/Mon.v, compute exactly the
   functions of the readable model Lib/OQModel.v, for every well-formed state (wf: uint32 counters,
   m_rdstate 0 or 6) and every argument. *)
From VB Require Import Base IR Sem Mon OQModel OQFacts.
From VB Require Import Queue QueueDefs.
Local Open Scope Z_scope.

(* the initial values of the data members are those of the model; the length, because member_of answers 0 for a name
   it does not know: a seventh member initialised to 0 would pass the first conjunct *)
Lemma init_eq : map (fun x => snd x) oq_vars = map Some (ms_vars (abs oq_init)) /\ length oq_vars = 6%nat.
Proof. vm_compute. split; reflexivity. Qed.

Lemma cvs_eq : oq_cvs = ["tellgChanged"; "tellpChanged"]%string.
Proof. reflexivity. Qed.

(* the states the members of the code can hold: uint32 counters, m_rdstate one of the two values read() assigns *)
Definition u32 (z : Z) : Prop := 0 <= z < M32.
Definition wf (s : oq) : Prop :=
  u32 (q_tellg s) /\ u32 (q_tellp s) /\ u32 (q_cap s) /\ u32 (q_fsz s) /\ (q_rd s = 0 \/ q_rd s = 6).

Lemma M32_eq : 2 ^ bits U32 = M32. Proof. reflexivity. Qed.
Lemma wrap_wrap z : wrap32 (wrap32 z) = wrap32 z. Proof. apply Z.mod_mod. discriminate. Qed.

(* a uint32 counter is its own residue: on a state written with wrap32 around every counter, code
   and model reduce to the same term with wrap_wrap alone *)
Lemma wf_wrapped s : wf s ->
  s = {| q_abort := q_abort s; q_items := q_items s; q_tellg := wrap32 (q_tellg s); q_tellp := wrap32 (q_tellp s);
         q_cap := wrap32 (q_cap s); q_fsz := wrap32 (q_fsz s); q_rd := q_rd s |}.
Proof. intros (H1 & H2 & H3 & H4 & _). rewrite !wrap32_small by assumption. destruct s; reflexivity. Qed.

(* the wait split off, so that the rest is not run inside the branches of an undecided comparison *)
Lemma mcall_wait vt arg arg2 ms m obj st nm cv p rest :
  nth_error ms m = Some {| mm_name := nm; mm_body := TSeq TLock (TSeq (TWait cv p) rest) |} ->
  mcall vt arg arg2 ms m obj st =
  match meval vt arg arg2 st p with
  | Ok (z, _) => if z =? 0 then MBlocked cv
                 else mexec vt arg arg2 ms obj rest
                        {| mr_st := st; mr_local := 0; mr_ret := None; mr_notes := []; mr_locked := true; mr_deleted := [] |}
  | Err e => MFail e end.
Proof.
  intros E. unfold mcall. rewrite E. cbn. destruct (meval vt arg arg2 st p) as [[z t]|e]; [|reflexivity].
  destruct (z =? 0); reflexivity.
Qed.

(* lazy runs the interpreter with expressions (meval) and arithmetic on values folded; cbn, which
   takes seconds on the interpreter itself, then evaluates the expressions only *)
Local Arguments Z.add : simpl never.
Local Arguments Z.eqb : simpl nomatch.
Local Arguments norm : simpl never.
Ltac exec := lazy -[meval norm wrap32 length Z.of_nat Z.add Z.eqb Z.leb Z.ltb]; cbn;
  change (norm U32) with wrap32; change (wrap32 1) with 1; rewrite ?wrap_wrap.

Lemma read_eq : forall s, wf s ->
  run "read" 0 0 s =
  if read_guard s then let '(s', ret, notes) := oq_read s in
    MDone {| mr_st := abs s'; mr_local := match ret with Some x => x | None => 0 end;
             mr_ret := Some (match ret with Some x => x | None => 0 end); mr_notes := notes; mr_locked := true; mr_deleted := [] |}
  else MBlocked CV_tellp.
Proof.
  intros s W. rewrite (wf_wrapped s W). destruct s as [ab it tg tp cap fs rd].
  unfold run. erewrite mcall_wait by reflexivity.
  destruct ab, it as [|x r]; exec; try reflexivity.
  (* not aborted, nothing queued: read goes on iff the declared size has been consumed *)
  destruct (wrap32 fs <=? wrap32 tg); reflexivity.
Qed.

Lemma write_eq : forall s x, wf s ->
  run "write" 0 x s =
  if write_guard s then let '(s', notes) := oq_write s x in
    MDone {| mr_st := abs s'; mr_local := 0; mr_ret := None; mr_notes := notes; mr_locked := true; mr_deleted := [] |}
  else MBlocked CV_tellg.
Proof.
  intros s x W. rewrite (wf_wrapped s W). destruct s as [ab it tg tp cap fs rd].
  unfold run. erewrite mcall_wait by reflexivity.
  destruct ab; exec.
  - (* aborted: the declared size follows tellp when tellp passes it *)
    destruct (wrap32 fs <? wrap32 (wrap32 tp + 1)); reflexivity.
  - (* not aborted: write goes on iff the queue is below its capacity *)
    unfold zlen. destruct (wrap32 (Z.of_nat (length it)) <? wrap32 cap); [|reflexivity].
    destruct (wrap32 fs <? wrap32 (wrap32 tp + 1)); reflexivity.
Qed.

Lemma abort_eq : forall s,
  run "abort" 0 0 s = let '(s', notes) := oq_abort s in
    MDone {| mr_st := abs s'; mr_local := 0; mr_ret := None; mr_notes := notes; mr_locked := true; mr_deleted := [] |}.
Proof. intros [ab it tg tp cap fs rd]. reflexivity. Qed.

Lemma setFileSize_eq : forall s n,
  run "setFileSize" n 0 s = let '(s', notes) := oq_setFileSize s n in
    MDone {| mr_st := abs s'; mr_local := 0; mr_ret := None; mr_notes := notes; mr_locked := true; mr_deleted := [] |}.
Proof. intros [ab it tg tp cap fs rd] n. exec. reflexivity. Qed.

Lemma setBufferSize_eq : forall s n,
  run "setBufferSize" n 0 s = let '(s', notes) := oq_setBufferSize s n in
    MDone {| mr_st := abs s'; mr_local := 0; mr_ret := None; mr_notes := notes; mr_locked := true; mr_deleted := [] |}.
Proof. intros [ab it tg tp cap fs rd] n. exec. reflexivity. Qed.

Lemma tellg_eq : forall s, wf s -> run "tellg" 0 0 s = done s (q_tellg s) [] [].
Proof. intros s W. rewrite (wf_wrapped s W). destruct s. exec. reflexivity. Qed.
Lemma tellp_eq : forall s, wf s -> run "tellp" 0 0 s = done s (q_tellp s) [] [].
Proof. intros s W. rewrite (wf_wrapped s W). destruct s. exec. reflexivity. Qed.
Lemma good_eq : forall s, wf s -> run "good" 0 0 s = done s (b2z (oq_good s)) [] [].
Proof. intros [ab it tg tp cap fs rd] (H1 & H2 & H3 & H4 & [H5|H5]); cbn in H5; subst rd; reflexivity. Qed.
Lemma eof_eq : forall s, wf s -> run "eof" 0 0 s = done s (b2z (oq_eof s)) [] [].
Proof. intros [ab it tg tp cap fs rd] (H1 & H2 & H3 & H4 & [H5|H5]); cbn in H5; subst rd; reflexivity. Qed.

Lemma destroy_eq : forall s,
  run "~ObjectQueue" 0 0 s = let '(s', del) := oq_destroy s in
    MDone {| mr_st := abs s'; mr_local := 0; mr_ret := None; mr_notes := [CV_tellg; CV_tellp]; mr_locked := false; mr_deleted := del |}.
Proof. intros [ab it tg tp cap fs rd]. reflexivity. Qed.

Lemma wrap32_u32 z : u32 (wrap32 z).
Proof. apply Z.mod_pos_bound. reflexivity. Qed.

Lemma wf_init : wf oq_init.
Proof. unfold wf, u32. cbn. unfold M32. lia. Qed.

(* wf_init, wf_step: the two premises of OQFacts.qrun_inv, which carries wf to every state a history reaches *)
Lemma wf_step : forall s o, wf s -> wf (fst (fst (qstep s o))).
Proof.
  intros [ab it tg tp cap fs rd] o (H1 & H2 & H3 & H4 & H5).
  destruct o; [destruct it|..]; cbn in *; [| |destruct (_ <? _)|..]; unfold wf; cbn; auto 10 using wrap32_u32.
Qed.
