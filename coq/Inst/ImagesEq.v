(* Inst/ImagesEq.v — decode-then-encode evaluated inside the kernel on every object image cut from the
   Vector-produced reference logs (Gen/RefImages.v, regenerated on every run). *)
From VB Require Import Base IR Sem Tables.
From VB Require Import Classes Consts Common RefImages.
Local Open Scope Z_scope.

Definition class_of_code (code : Z) : Z :=
  match find (fun p => fst p =? code) factory_table with Some p => snd p | None => 0 end.

(* the image decodes completely: the decoder succeeds, stays good and does not read past the image *)
Definition decodes (c : Z) (b : list Z) : option state :=
  match dec cs scan_p default_cap c (fresh cs c) (mk_ustream b) with
  | Ok (r, i) => if s_good i && (s_pos i <=? zlen b) then Some r else None
  | Err _ => None
  end.

(* ... and then encodes to the same bytes, followed only by (at most 3) zero bytes of padding *)
Definition reencodes (c : Z) (b : list Z) (r : state) : bool :=
  match enc cs default_cap c r with
  | Ok (_, b') => list_eqb (ztake (zlen b) b') b && forallb (Z.eqb 0) (zdrop (zlen b) b') && (zlen b' - zlen b <=? 3)
  | Err _ => false
  end.

Definition image_complete (im : Z * list Z) : bool :=
  let c := class_of_code (fst im) in
  negb (c =? 0) && match decodes c (snd im) with Some _ => true | None => false end.

(* what is evaluated, once per image: None = no class of the library, or the image does not decode completely;
   Some b = it does, and b says whether it re-encodes to itself *)
Definition image_verdict (im : Z * list Z) : option bool :=
  let c := class_of_code (fst im) in
  if c =? 0 then None else option_map (reencodes c (snd im)) (decodes c (snd im)).

Lemma image_complete_verdict im : image_complete im = if image_verdict im then true else false.
Proof.
  unfold image_complete, image_verdict. destruct (_ =? 0); [reflexivity|].
  destruct (decodes (class_of_code (fst im)) (snd im)); reflexivity.
Qed.

Definition verdicts_okb (imgs : list (Z * list Z)) : bool :=
  let v := map image_verdict imgs in
  forallb (fun o => match o with Some b => b | None => true end) v &&
  (150 <=? zlen (filter (fun o : option bool => if o then true else false) v)).

Lemma verdicts_use imgs : verdicts_okb imgs = true ->
  (forall im, In im imgs -> image_verdict im <> Some false) /\ 150 <=? zlen (filter image_complete imgs) = true.
Proof.
  unfold verdicts_okb. intros H. apply andb_prop in H. destruct H as [H1 H2]. split.
  - intros im Hin E. pose proof (proj1 (forallb_forall _ _) H1 _ (in_map image_verdict _ _ Hin)) as V. rewrite E in V. discriminate.
  - unfold zlen in *. rewrite filter_map_length in H2. rewrite (filter_ext _ _ image_complete_verdict). exact H2.
Qed.

Lemma verdicts_ok : verdicts_okb ref_images = true.
Proof. vm_compute. reflexivity. Qed.

Theorem images_reencode : forall code b, In (code, b) ref_images ->
  forall r, decodes (class_of_code code) b = Some r -> class_of_code code <> 0 ->
  exists s' b', enc cs default_cap (class_of_code code) r = Ok (s', b') /\
    ztake (zlen b) b' = b /\ Forall (fun x => x = 0) (zdrop (zlen b) b') /\ zlen b' - zlen b <= 3.
Proof.
  intros code b Hin r Hd Hc.
  pose proof (proj1 (verdicts_use _ verdicts_ok) (code, b) Hin) as H. unfold image_verdict in H. cbn [fst snd] in H.
  apply Z.eqb_neq in Hc. rewrite Hc, Hd in H. cbn [option_map] in H. unfold reencodes in H.
  destruct (enc cs default_cap (class_of_code code) r) as [[s' b']|]; [|contradiction H; reflexivity].
  destruct (_ && _) eqn:E in H; [clear H|contradiction H; reflexivity].
  apply andb_prop in E. destruct E as [E H3]. apply andb_prop in E. destruct E as [H1 H2].
  exists s', b'. split; [reflexivity|]. split; [apply list_eqb_eq; exact H1|]. split.
  - apply Forall_forall. intros x Hx. rewrite forallb_forall in H2. specialize (H2 x Hx). apply Z.eqb_eq in H2. auto.
  - apply Z.leb_le. exact H3.
Qed.

(* non-vacuity: at least 150 of the images decode completely (a floor, not the number: the images are cut from the logs anew on every run) *)
Definition n_complete : Z := zlen (filter image_complete ref_images).
Lemma many_complete : 150 <=? n_complete = true.
Proof. exact (proj2 (verdicts_use _ verdicts_ok)). Qed.
