(* Properties_C16.v — C16: the object queue is a bounded FIFO with exact end-of-stream and abort.
   Statements only.  The model (Lib/OQModel.v) is proved equal, method by method and for every
   well-formed state (wf: uint32 counters, m_rdstate 0 or 6) and every argument, to the code translated
   from ObjectQueue.{h,cpp} on this run (C16_code_is_model); the remaining theorems are about that model. *)
From VB Require Import Base IR Sem Mon OQModel OQFacts.
From VB Require Import Queue QueueDefs QueueEq.
Local Open Scope Z_scope.

(* the translated methods, run by the interpreter of Lib/Mon.v (C integer typing, mutex discipline:
   an access to a data member without the mutex makes the interpreter fail), compute the model *)
Theorem C16_code_is_model : forall s, wf s ->
  (run "read" 0 0 s =
     if read_guard s then let '(s', ret, notes) := oq_read s in
       MDone {| mr_st := abs s'; mr_local := match ret with Some x => x | None => 0 end;
                mr_ret := Some (match ret with Some x => x | None => 0 end); mr_notes := notes; mr_locked := true; mr_deleted := [] |}
     else MBlocked CV_tellp) /\
  (forall x, run "write" 0 x s =
     if write_guard s then let '(s', notes) := oq_write s x in
       MDone {| mr_st := abs s'; mr_local := 0; mr_ret := None; mr_notes := notes; mr_locked := true; mr_deleted := [] |}
     else MBlocked CV_tellg) /\
  (run "abort" 0 0 s = let '(s', notes) := oq_abort s in
     MDone {| mr_st := abs s'; mr_local := 0; mr_ret := None; mr_notes := notes; mr_locked := true; mr_deleted := [] |}) /\
  (forall n, run "setFileSize" n 0 s = let '(s', notes) := oq_setFileSize s n in
     MDone {| mr_st := abs s'; mr_local := 0; mr_ret := None; mr_notes := notes; mr_locked := true; mr_deleted := [] |}) /\
  (forall n, run "setBufferSize" n 0 s = let '(s', notes) := oq_setBufferSize s n in
     MDone {| mr_st := abs s'; mr_local := 0; mr_ret := None; mr_notes := notes; mr_locked := true; mr_deleted := [] |}) /\
  run "tellg" 0 0 s = done s (q_tellg s) [] [] /\
  run "tellp" 0 0 s = done s (q_tellp s) [] [] /\
  run "good" 0 0 s = done s (b2z (oq_good s)) [] [] /\
  run "eof" 0 0 s = done s (b2z (oq_eof s)) [] [] /\
  (run "~ObjectQueue" 0 0 s = let '(s', del) := oq_destroy s in
     MDone {| mr_st := abs s'; mr_local := 0; mr_ret := None; mr_notes := [CV_tellg; CV_tellp]; mr_locked := false; mr_deleted := del |}).
Proof.
  intros s W. repeat split; intros;
    auto using read_eq, write_eq, abort_eq, setFileSize_eq, setBufferSize_eq, tellg_eq, tellp_eq, good_eq, eof_eq, destroy_eq.
Qed.
Print Assumptions C16_code_is_model.

(* wf_init, wf_step: the two premises of OQFacts.qrun_inv, which carries wf to every state a history reaches *)
Theorem C16_wf_reachable : wf oq_init /\ forall s o, wf s -> wf (fst (fst (qstep s o))).
Proof. exact (conj wf_init wf_step). Qed.
Print Assumptions C16_wf_reachable.

(* insertion order, exactly once — for every history of calls, of any length *)
Theorem C16_fifo : forall ops s' outs,
  qrun oq_init ops = Some (s', outs) -> outs ++ q_items s' = written ops.
Proof. intros ops s' outs. exact (oq_fifo ops oq_init s' outs). Qed.
Print Assumptions C16_fifo.

(* end-of-stream is reported exactly when the queue is empty, and then only after abort() or when
   the declared size has been consumed; never while objects remain *)
Theorem C16_eof_exact : forall s, read_guard s = true ->
  let '(s', ret, _) := oq_read s in
  (ret = None <-> q_items s = []) /\
  (ret = None -> (q_abort s = true \/ q_fsz s <= q_tellg s) /\ oq_eof s' = true /\ oq_good s' = false) /\
  (forall x, ret = Some x -> exists r, q_items s = x :: r /\ q_items s' = r /\ oq_good s' = true /\ oq_eof s' = false).
Proof. exact oq_eof_exact. Qed.
Print Assumptions C16_eof_exact.

(* a producer is held back exactly while the queue is at its capacity (and abort() was not called) *)
Theorem C16_backpressure : forall s,
  write_guard s = false <-> (q_abort s = false /\ q_cap s <= wrap32 (Z.of_nat (length (q_items s)))).
Proof. exact oq_backpressure. Qed.
Print Assumptions C16_backpressure.

Theorem C16_bounded : forall ops s s' outs,
  forallb no_cfg ops = true -> q_abort s = false -> 0 <= q_cap s < M32 ->
  Z.of_nat (length (q_items s)) <= q_cap s ->
  qrun s ops = Some (s', outs) ->
  Z.of_nat (length (q_items s')) <= q_cap s' /\ q_cap s' = q_cap s /\ q_abort s' = false.
Proof. exact oq_bounded. Qed.
Print Assumptions C16_bounded.

(* abort() releases every waiter: both predicates hold afterwards and both condition variables are
   notified *)
Theorem C16_abort_releases : forall s,
  let '(s', notes) := oq_abort s in
  read_guard s' = true /\ write_guard s' = true /\ In CV_tellg notes /\ In CV_tellp notes.
Proof. exact oq_abort_releases. Qed.
Print Assumptions C16_abort_releases.

(* ... and it stays in force whatever is called afterwards *)
Theorem C16_abort_never_blocks : forall ops s s' outs o,
  q_abort s = true -> qrun s ops = Some (s', outs) -> qenabled s' o = true.
Proof. exact oq_abort_never_blocks. Qed.
Print Assumptions C16_abort_never_blocks.

(* no lost wake-up among read / write / abort / setFileSize *)
Theorem C16_no_lost_wakeup : forall s o, pipeline_op o = true -> qenabled s o = true ->
  let '(s', _, notes) := qstep s o in
  (read_guard s = false -> read_guard s' = true -> In CV_tellp notes) /\
  (write_guard s = false -> write_guard s' = true -> In CV_tellg notes).
Proof. exact oq_no_lost_wakeup. Qed.
Print Assumptions C16_no_lost_wakeup.

(* the destructor releases every object still queued, once *)
Theorem C16_destroy_releases : forall s,
  let '(s', del) := oq_destroy s in del = q_items s /\ q_items s' = [] /\ q_abort s' = true.
Proof. exact oq_destroy_releases. Qed.
Print Assumptions C16_destroy_releases.
