(* Properties_C12.v — C12: buffered data stays bounded however long the file is.  Statements only.
   PARTIAL: the theorems bound the logical bytes / objects held; allocator slack, vector capacity and
   zlib's state are measured by the correspondence run (live-heap high-water mark), not modelled. *)
From Coq Require Import String List Bool ZArith Lia.
From VB Require Import Base BaseFacts UFModel UFFacts WPipe RPipe PipeSkel FileSkel SkelEq.
Import ListNotations.
Local Open Scope Z_scope.

(* write sessions: bytes in the stream < buffer + one chunk; objects queued <= capacity: in every
   reachable state, for every number of objects *)
Theorem C12_write_bounded : forall cap buf cs M l s, 1 <= cs -> 0 <= M -> Forall (chunks_le M) l -> WPipe.reach cap buf cs l s ->
  zlen (ubuf s) <= Z.max 0 (buf - 1) + M /\ zlen (WPipe.q s) <= Z.max cap 0.
Proof.
  intros cap buf cs M l s _ HM Hl R. destruct (write_bounded cap buf cs M l s HM Hl R) as (A & B & _). split; assumption.
Qed.
Print Assumptions C12_write_bounded.

(* read sessions (before close() aborts): bytes buffered ahead of the reader < max(buffer, largest single
   read request R) + one container; objects queued <= capacity; for every number of containers *)
Theorem C12_read_bounded : forall cap buf M R c p k s, 0 <= M -> Forall (fun x => zlen x <= M) c -> req_bound R p -> RPipe.reach cap buf c p k s ->
  tg s <= hw s /\ dropat s <= hw s /\
  (u_abort s = false -> zlen (udata s) - hw s <= Z.max 0 (Z.max buf R - 1) + M) /\
  (q_abort s = false -> zlen (RPipe.q s) <= Z.max cap 0) /\
  buf <= bufsz s <= Z.max buf R.
Proof.
  intros cap buf M R c p k s HM Hc HR Hr. destruct (read_bounded cap buf M R c p k s HM Hc HR Hr) as (A & B & C & D & _ & E & _). repeat split; try assumption; apply E.
Qed.
Print Assumptions C12_read_bounded.

(* dropOldData stops at the first container that ends after the get position, the put position or the declared end;
   in a state with tellg <= tellp and tellg <= fileSize that is: the first container kept ends after the get position *)
Theorem C12_drop_leaves_less_than_a_container : forall s,
  match u_data (uf_drop s) with [] => True | c :: _ => u_tellg s < c_end c \/ u_tellp s < c_end c \/ u_fsz s < c_end c end.
Proof. intros s. destruct (drop_all_suffix (u_data s) (u_tellg s) (u_tellp s) (u_fsz s)) as (gone & _ & _ & H). exact H. Qed.
Print Assumptions C12_drop_leaves_less_than_a_container.

(* the parser calls dropOldData on every path that advances the get position — also when it skips an object of unknown type *)
Theorem C12_parser_drops_on_every_path : w1_every_path_drops skel_uncompressedFile2ReadWriteQueue = true.
Proof. exact parser_drops_on_every_path. Qed.
Print Assumptions C12_parser_drops_on_every_path.
