(* Properties_C09.v — C09: filler bytes (and hence anything skipped) in front of an object do not
   hide it.  The loop is Sem.scan_loop (ObjectHeaderBase::read as written: 4-byte
   reads, the three seek-back rules, stale tmp after short reads) over the in-memory stream model;
   the signature and the rules are regenerated from the source on every run (Inst/ScanEq.v).
   C09_unknown_objects_skipped (Inst/UnknownEq.v): the parser stage of the file model over ANY sequence of well-formed known
   objects and unknown-type objects (any code the factory does not know, any payload — images of known objects included —, any
   declared header size / version, declared size = actual size >= 16) delivers exactly the known ones, as written, in order.
   PARTIAL: filler bytes BETWEEN objects in the object loop (the search theorem covers them at the level of the search), unknown
   objects whose declared size is not their actual size, and the real reader against the model are decided by the
   correspondence run on hand-assembled streams. *)
From VB Require Import Base IR Sem BaseFacts StreamFacts ScanFacts.
From VB Require Import FileModel FileDefs StreamRT UnknownEq.
From VB Require Import Classes Consts Common ScanEq.
Local Open Scope Z_scope.

(* For every byte string `pre` (any length, any content: single 'L's, "LO", "LOB", "LOLOB", ending in
   any proper prefix of the signature), if no 4-byte window starting inside `pre` is the signature,
   then from a cursor standing before pre ++ "LOBJ" ++ rest the search stops exactly behind the first
   signature — it neither stops early nor runs past it — with the stream good. *)
Theorem C09_scan_finds_first : forall fuel pre rest s tmp,
  nstream s -> Forall byte pre -> s_after s = pre ++ SIGB ++ rest ->
  no_sig_before (length pre) (pre ++ SIGB ++ rest) -> (length pre < fuel)%nat -> 0 <= tmp ->
  scan_loop scan_p fuel tmp s = Ok (SIG, advance (zlen pre + 4) s true false).
Proof.
  intros fuel pre rest s tmp. destruct scan_constants as [_ E]. rewrite E.
  exact (scan_finds_first (sp_field scan_p) (sp_stop_on_fail scan_p) fuel pre rest s tmp).
Qed.
Print Assumptions C09_scan_finds_first.

(* the fuel the decoders give the loop (stream length + 2) always suffices *)
Corollary C09_fuel_suffices : forall pre rest s tmp,
  nstream s -> Forall byte pre -> s_after s = pre ++ SIGB ++ rest ->
  no_sig_before (length pre) (pre ++ SIGB ++ rest) -> 0 <= tmp ->
  scan_loop scan_p (S (S (length (s_data s)))) tmp s = Ok (SIG, advance (zlen pre + 4) s true false).
Proof.
  intros pre rest s tmp Hs Hb Ha Hno Ht.
  refine (C09_scan_finds_first _ pre rest s tmp Hs Hb Ha Hno _ Ht).
  pose proof (data_len s) as D. rewrite Ha in D. unfold zlen in D. rewrite !app_length in *. lia.
Qed.
Print Assumptions C09_fuel_suffices.

Theorem C09_unknown_objects_skipped : forall items, Forall item_ok items ->
  let U := concat (map item_bytes items) in
  exists ds, Forall2 same_obj (knowns items) ds /\
    obj_loop cs scan_p default_cap factory_table C_ohb fid_objectSize fid_objectType (2 * length U + 16) (mk_ustream U) [] 0 =
      (ds, fold_left (fun c o => next_count o c) (knowns items) 0, EndException).
Proof. intros items Hall. exact (consumes_session _ _ _ (items_consumed items Hall)). Qed.
Print Assumptions C09_unknown_objects_skipped.

(* non-vacuity: an unknown object whose payload starts with the signature *)
Example C09_unknown_example : uobj_ok {| u_hsz := 32; u_hver := 7; u_osz := 24; u_type := 200; u_payload := [76; 79; 66; 74; 1; 2; 3; 4] |}.
Proof. exact ex_unknown. Qed.
