(* Properties_C11.v — C11: an object handed over is never touched by the other side again; shared
   state is accessed under its monitor's mutex.  Statements only.
   PARTIAL: a data race in the sense of the C++ memory model is a property of the compiled program;
   the model knows mutexes, spawn/join and the declared atomics.  ASan/TSan runs are supporting evidence. *)
From Coq Require Import String List Bool ZArith Lia.
From VB Require Import Base IR Sem Mon OQModel WPipe RPipe PipeSkel FileSkel SkelEq.
From VB Require Import Queue QueueDefs QueueEq Sync SyncDefs SyncEq.
Import ListNotations.
Local Open Scope Z_scope.

(* File::write / File::read do nothing but the queue call; the read worker does not mention the
   object after m_readWriteQueue.write(obj); the write worker deletes the object it dequeued as its
   last action and only once — facts about the statement skeletons regenerated from File.cpp *)
Theorem C11_handover :
  skel_write = ["m_readWriteQueue . write ( ohb )"]%string /\
  skel_read = ["ObjectHeaderBase * ohb = m_readWriteQueue . read ( )"; "return ohb"]%string /\
  w1_read_step_ok skel_uncompressedFile2ReadWriteQueue = true /\
  deletes_last skel_readWriteQueue2UncompressedFile = true.
Proof.
  destruct handover_api as (A & B & _). destruct handover_workers as (C & D & _). repeat split; assumption.
Qed.
Print Assumptions C11_handover.

(* every object is in exactly one place at any time (read sessions): returned to the application,
   queued, or deleted by the queue's destructor — in every reachable state of every interleaving *)
Theorem C11_read_single_owner : forall cap buf c p k s, RPipe.reach cap buf c p k s ->
  made s = somes (got s) ++ RPipe.q s ++ freed s.
Proof. intros cap buf c p k s R. destruct (read_owned cap buf c p k s R) as (O & _). exact O. Qed.
Print Assumptions C11_read_single_owner.

(* ... and in write sessions: with the application, queued, being encoded, or deleted *)
Theorem C11_write_single_owner : forall cap buf cs, 1 <= cs -> forall l s, WPipe.reach cap buf cs l s ->
  deleted s ++ w1_ids (WPipe.w1 s) ++ map o_id (WPipe.q s) ++ map o_id (a_list (WPipe.a_pc s)) = map o_id l.
Proof. intros cap buf cs _ l s R. exact (proj2 (conserved cap buf cs l s R)). Qed.
Print Assumptions C11_write_single_owner.

(* lock discipline: the interpreter of the translated ObjectQueue methods fails (MFail) on any access
   to a data member or to the queue without the mutex; none of the nine methods below fails in any well-formed state
   (the destructor, whose delete loop runs without the mutex, is not among them) *)
Theorem C11_queue_lock_discipline : forall s x n e, wf s ->
  run "read" 0 0 s <> MFail e /\ run "write" 0 x s <> MFail e /\ run "abort" 0 0 s <> MFail e /\
  run "setFileSize" n 0 s <> MFail e /\ run "setBufferSize" n 0 s <> MFail e /\
  run "tellg" 0 0 s <> MFail e /\ run "tellp" 0 0 s <> MFail e /\ run "good" 0 0 s <> MFail e /\ run "eof" 0 0 s <> MFail e.
Proof.
  intros s x n e W.
  rewrite (read_eq s W), (write_eq s x W), (abort_eq s), (setFileSize_eq s n), (setBufferSize_eq s n),
          (tellg_eq s W), (tellp_eq s W), (good_eq s W), (eof_eq s W).
  repeat split; try discriminate.
  - destruct (read_guard s); [destruct (oq_read s) as [[? ?] ?]|]; discriminate.
  - destruct (write_guard s); [destruct (oq_write s x)|]; discriminate.
Qed.
Print Assumptions C11_queue_lock_discipline.

(* the 17 public methods of UncompressedFile take the mutex before anything else (for the destructor and the private
   logContainerContaining see SyncEq.all_locked) *)
Theorem C11_stream_methods_lock_first :
  forallb (fun n => starts_locked (umeth n))
    ["gcount"; "read"; "tellg"; "seekg"; "write@bytes"; "tellp"; "good"; "eof"; "abort"; "write@container"; "nextLogContainer";
     "fileSize"; "setFileSize"; "setBufferSize"; "dropOldData"; "defaultLogContainerSize"; "setDefaultLogContainerSize"]%string = true.
Proof. exact all_locked. Qed.
Print Assumptions C11_stream_methods_lock_first.

(* open() starts the workers last: no statement of the application thread inside open() runs concurrently with them *)
Theorem C11_open_spawns_last : nothing_after_spawn skel_open = true /\ spawns skel_open = 4%nat.
Proof. exact open_spawns_last. Qed.
Print Assumptions C11_open_spawns_last.
