(* Properties_C04.v — C04: finished files consist of the statistics header followed only by log
   containers whose concatenated payload is the concatenation of the objects' encodings.
   Statements only.  Model: Lib/FileModel.write_session (File::open(out) ... close() as a sequential
   composition; tied to the code by the `file` harness: byte-identical files at every level) over
   the codecs regenerated from /repo.  zlib is a variable (`deflate`): the statements hold for ANY
   compress function (no hypothesis about zlib is needed for them).
   PARTIAL: that each container's bytes are accepted by an independent decoder (signature, header
   size/type, objectSize = 32 + stored, method, FLEVEL, inflate = declared size, padding) is not a
   theorem — it is checked by the stdlib-only decoder on every file the real library writes. *)
From VB Require Import Base IR Sem Tables BaseFacts FileModel FileFacts.
From VB Require Import Classes Consts Common FileDefs FileEq.
Local Open Scope Z_scope.

(* every finished file = encoded statistics ++ containers; containers = encodings of the pieces of
   the stream (+ one empty restore-point container when enabled); pieces concatenate to the objects'
   encodings in the order written — for every compression level, container size, header and objects *)
Theorem C04_file_is_header_then_containers : forall deflate cap cfg hdr objs f, f_write_session deflate cap cfg hdr objs = Ok f ->
  exists ps conts hbytes hdr' h0,
    f = hbytes ++ concat conts /\ enc cs cap C_stats hdr' = Ok (h0, hbytes) /\
    Forall2 (fun p c => lce deflate cap (w_level cfg) p = Ok c) (if w_restore cfg then ps ++ [[]] else ps) conts /\
    ps = pieces (length (concat (map fst objs))) (w_cs cfg) (concat (map fst objs)) /\
    concat ps = concat (map fst objs).
Proof.
  intros deflate cap cfg hdr objs f H.
  destruct (file_shape deflate cap cfg hdr objs f H) as (ps & conts & hdr' & hb & h0 & h00 & hb0 & A & B & _ & C & D & E & _).
  exists ps, conts, hb, hdr', h0. exact (conj A (conj B (conj C (conj D E)))).
Qed.
Print Assumptions C04_file_is_header_then_containers.

(* no container holds more than the configured container size; all but the last are full, the last is short of full (possibly
   empty: FileEq.pieces_example) *)
Theorem C04_container_sizes : forall n (U : list Z), 1 <= n ->
  Forall (fun p => zlen p <= n) (pieces (length U) n U) /\
  exists full last, pieces (length U) n U = full ++ [last] /\ Forall (fun p => zlen p = n) full /\ zlen last < n.
Proof. intros n U Hn. apply pieces_sizes; [exact Hn|apply le_n]. Qed.
Print Assumptions C04_container_sizes.

(* the concatenated payload is identical for all container sizes (and does not involve the level at all) *)
Theorem C04_config_independent : forall n1 n2 (U : list Z),
  concat (pieces (length U) n1 U) = concat (pieces (length U) n2 U).
Proof. intros. apply pieces_config_independent. Qed.
Print Assumptions C04_config_independent.
