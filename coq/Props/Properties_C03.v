(* Properties_C03.v — C03: every written object is framed as its own header declares.
   Theorems (for all states of every class outside the exception list; the first three from those of Inst/Codec.v, the sweep of the
   fourth in this file):
     C03_consumes           decoding the emitted bytes consumes exactly what was emitted;
     C03_lengths            every derived length/count member equals the payload emitted for it;
     C03_encoder_in_bounds  encoding never reads outside the caller's containers, whatever stale
                            values the derived members hold.
     C03_object_size_default_partial  for the default-constructed object of each of the 106 regular classes (finite
                            domain, swept in the kernel): objectSize left by write() = calculateObjectSize() >= 16
                            and the bytes emitted are objectSize + objectSize mod 4 (object plus padding).
   Not a theorem for non-default states: that the objectSize/headerSize members equal the bytes emitted
   minus (objectSize mod 4) zero bytes of padding is decided by the correspondence run and the direct
   oracle on the implementation (DESIGN.md section 4 C03). *)
From VB Require Import Base IR Sem StreamFacts EvalFacts Roundtrip ClassRT.
From VB Require Import Classes Consts Common CodecDefs Codec StreamRT.
Local Open Scope Z_scope.

Theorem C03_consumes : forall c, In c object_classes -> ~ In c rt_exceptions ->
  forall s s' bytes, api_state c s -> enc cs default_cap c s = Ok (s', bytes) ->
  forall rest, exists r' i',
    dec cs scan_p default_cap c (fresh cs c) (mk_ustream (bytes ++ rest)) = Ok (r', i') /\ s_after i' = rest.
Proof.
  intros c Hc Hex s s' bytes Ha He rest.
  destruct (object_rt c Hc Hex s s' bytes Ha He rest) as (r' & i' & H1 & _ & H3 & _).
  exists r', i'. split; assumption.
Qed.
Print Assumptions C03_consumes.

Theorem C03_lengths : forall c, In c object_classes -> ~ In c rt_exceptions ->
  forall s s' bytes, api_state c s -> enc cs default_cap c s = Ok (s', bytes) ->
  forall g f k, mlook g (pre_M cs (pre_of c)) = Some (CSize f k) ->
    s' g = VInt (elems cs s' f * k).
Proof.
  intros c Hc Hex s s' bytes Ha He g f k Hl.
  destruct (lengths_exact c Hc Hex s s' bytes Ha He g _ Hl) as (x & t & _ & _ & Hv & _). exact Hv.
Qed.
Print Assumptions C03_lengths.

Theorem C03_encoder_in_bounds : forall c, In c object_classes -> ~ In c rt_exceptions ->
  forall s, api_state c s -> enc cs default_cap c s <> Err EOOBRead.
Proof. exact enc_in_bounds. Qed.
Print Assumptions C03_encoder_in_bounds.

(* non-vacuity: some class really has derived lengths *)
Example C03_nonvacuous :
  pre_M cs (pre_of (class_of_name "AppText")) <> [].
Proof. vm_compute. discriminate. Qed.

Definition default_size_ok (c : Z) : bool :=
  match enc cs default_cap c (fresh cs c) with
  | Ok (s', b) =>
      match s' fid_objectSize, osize cs c s' with
      | VInt v, Ok z => (v =? z) && (zlen b =? v + v mod 4) && (16 <=? v)
      | _, _ => false
      end
  | Err _ => false
  end.

Lemma default_size_all : forallb default_size_ok (minus object_classes rt_exceptions) = true.
Proof. vm_compute. reflexivity. Qed.

Theorem C03_object_size_default_partial : forall c, In c object_classes -> ~ In c rt_exceptions ->
  default_size_ok c = true.
Proof. exact (forallb_minus default_size_ok _ _ default_size_all). Qed.
Print Assumptions C03_object_size_default_partial.

Example C03_default_sweep_nonvacuous : length (minus object_classes rt_exceptions) = 106%nat.
Proof. vm_compute. reflexivity. Qed.
