(* Properties_C06.v — C06: no API call blocks forever.  Statements only.
   Models: Lib/WPipe.v (write session), Lib/RPipe.v (read session): three threads, one step per critical
   section, blocking exactly where the wait predicates of ObjectQueue / UncompressedFile are false.
   Ties (all re-checked on every run): the wait predicates and notifications are proved equal to the
   terms translated from the source (C16_code_is_model, C15_guards_are_code, C16_no_lost_wakeup,
   C15_notifications_are_code); the order of calls in close(), the four worker loops, the hand-over points and
   the constructor / setDefaultLogContainerSize are decidable facts about statement skeletons
   regenerated from File.cpp (C06_code_shape).
   C06_close_under_inflating_worker: the one place where a worker runs a loop of its own between two synchronisation
   points — the signature search of ObjectHeaderBase::read, on the compressed std::fstream — ends for every file content
   and wherever File::close() (which closes that fstream BEFORE it joins the worker) takes effect: Sem.s_open counts the
   worker's operations on the stream down to the close; on a closed fstream a read sets eofbit|failbit, a seek failbit only.
   The pipeline models take each worker step between two synchronisation points as finite; this theorem discharges that
   for the inflating worker (C10_parser_terminates does for the parser).
   PARTIAL: progress needs weak fairness of the OS scheduler; condition variables are modelled with
   monitor semantics; thread spawn/join and the C++ memory model are outside the model. *)
From Coq Require Import String List Bool ZArith Lia.
From VB Require Import WPipe RPipe PipeSkel FileSkel SkelEq.
From VB Require Import Base IR Sem FileModel FileDefs TermFacts TermEq CloseEq.
From VB Require Import Consts.
Import ListNotations.
Local Open Scope Z_scope.

(* write sessions: for every object list, every queue capacity >= 1 and every container size that is
   at most the buffer (File keeps buffer = container size), in every reachable state — i.e. under
   every interleaving — either the session is over or some thread can move *)
Theorem C06_write_stuck_free : forall cap buf cs, 1 <= cap -> cs <= buf ->
  forall l s, WPipe.reach cap buf cs l s -> ~ WPipe.finished s -> exists t s', WPipe.step cap buf cs t s = Some s'.
Proof. intros cap buf cs H1 H2 l s R NF. apply WPipe.stuck_free; auto. eapply WPipe.inv_reach; eauto. Qed.
Print Assumptions C06_write_stuck_free.

(* ... and every step strictly decreases a natural-number measure, so no run of a write session is infinite; by
   C06_write_stuck_free a run that has stopped is in the finished state (close() has returned) *)
Theorem C06_write_terminates : forall cap buf cs, 1 <= cs ->
  forall s t s', WPipe.step cap buf cs t s = Some s' -> (WPipe.mu s' < WPipe.mu s)%nat.
Proof. intros cap buf cs H s t s' St. eapply WPipe.step_decreases; eauto. Qed.
Print Assumptions C06_write_terminates.

(* read sessions: for every file content, every reader behaviour (any request sizes), every number of
   read() calls before close() (early close included), every initial buffer size, every interleaving *)
Theorem C06_read_stuck_free : forall cap buf, 1 <= cap ->
  forall c p k s, RPipe.reach cap buf c p k s -> ~ RPipe.finished s ->
  exists t s', RPipe.step cap t s = Some s'.
Proof. intros cap buf H c p k s R NF. apply RPipe.stuck_free; auto. eapply RPipe.inv_reach; eauto. Qed.
Print Assumptions C06_read_stuck_free.

(* a request above the buffer size runs to the end: read() raises the buffer size to the request before it waits
   (C15_read_grows_buffer ties that to the source) *)
Theorem C06_read_request_above_buffer_finishes :
  let s := run_sched 10 40 (RPipe.init 2 [[1; 2]; [3; 4]] big_prog 1) in
  RPipe.a_pc s = RPipe.ADone /\ RPipe.w1 s = RPipe.W1Done /\ RPipe.w2 s = RPipe.W2Done /\ RPipe.got s = [Some 1] /\ bufsz s = 3.
Proof. exact big_request_finishes. Qed.
Print Assumptions C06_read_request_above_buffer_finishes.

(* what the models assume about File.cpp holds of the skeletons regenerated from it on this run *)
Theorem C06_code_shape :
  block "if ( m_openMode & std :: ios_base :: in ) {" skel_close = close_read_expected /\
  close_write_order skel_close = true /\
  skel_uncompressedFileReadThread = w1_read_expected /\ skel_uncompressedFileWriteThread = w1_write_expected /\
  skel_compressedFileReadThread = w2_read_expected /\ skel_compressedFileWriteThread = w2_write_expected /\
  skel_File = ctor_expected /\ skel_setDefaultLogContainerSize = setdcs_expected /\
  w2_step_ok skel_uncompressedFile2CompressedFile = true.
Proof.
  destruct worker_loops as (A & B & C & D). destruct configuration as (E & F).
  repeat split; auto using close_read_order, close_write_order_ok, w2_write_step.
Qed.
Print Assumptions C06_code_shape.

(* for every file content, cap, zlib answer and every number k of stream operations before the close takes effect:
   both stages end, so the joins in close() return *)
Theorem C06_close_under_inflating_worker : forall (inflate : list Z -> Z -> option (list Z)) cap (bytes : list Z) (k : nat),
  r_cend (f_read_session_closing inflate cap bytes k) <> EndFuel /\ r_oend (f_read_session_closing inflate cap bytes k) <> EndFuel.
Proof. exact read_session_closing_terminates. Qed.
Print Assumptions C06_close_under_inflating_worker.

(* what it rests on, as a fact about the term regenerated from ObjectHeaderBase.cpp: the search gives up on ANY failed stream *)
Theorem C06_search_stops_on_failed_stream : sp_stop_on_fail scan_p = true.
Proof. exact scan_stops_on_failed_stream. Qed.
Print Assumptions C06_search_stops_on_failed_stream.

(* the statement is false of the search that gives up at end of file only (scan_p_old): on a stream that
   has failed without reaching its end — what a seek on the closed file leaves — it spins, for every fuel; on a concrete
   three-object file the session hangs exactly when the close falls just before the seek back to a container's start *)
Theorem C06_old_search_refuted :
  (forall n i, s_sticky i = true -> s_good i = false -> s_eof i = false -> scan_loop scan_p_old n 0 i = Err ESpin) /\
  filter (fun k => is_fuel (r_cend (f_read_session_closing_old no_zlib default_cap ex_file k))) (seq 0 60) = [20; 38]%nat.
Proof. split; [exact old_search_spins|exact close_old_search_hangs]. Qed.
Print Assumptions C06_old_search_refuted.

(* non-vacuity: a concrete file; the session ends for each of the first 60 close points; a late close lets all objects through *)
Example C06_close_example :
  zlen ex_file = 352 /\
  forallb (fun k => negb (is_fuel (r_cend (f_read_session_closing no_zlib default_cap ex_file k)))) (seq 0 60) = true /\
  length (r_objs (f_read_session_closing no_zlib default_cap ex_file 20)) = 0%nat /\
  length (r_objs (f_read_session_closing no_zlib default_cap ex_file 55)) = 3%nat.
Proof. exact close_example. Qed.
