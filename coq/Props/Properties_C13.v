(* Properties_C13.v — C13: every object is released exactly once; sessions shut down cleanly.
   Statements only.  PARTIAL: histories with failed opens / repeated close and the is_open/good/eof
   flags are decided by differential execution (session harness with instance counting and
   LeakSanitizer), not by a theorem; leaks outside the model (zlib, fstream) likewise. *)
From Coq Require Import String List Bool ZArith Lia.
From VB Require Import Base OQModel OQFacts WPipe RPipe.
Import ListNotations.
Local Open Scope Z_scope.

(* write sessions: when close() has returned, every object passed to write() was deleted by the
   library exactly once, in write order; nothing is queued or buffered *)
Theorem C13_write_released : forall cap buf cs, 1 <= cs -> forall l s, WPipe.reach cap buf cs l s -> WPipe.finished s ->
  deleted s = map o_id l /\ WPipe.q s = [] /\ ubuf s = [].
Proof. intros cap buf cs H l s R F. destruct (write_determinate cap buf cs H l s R F) as (_ & A & B & C). auto. Qed.
Print Assumptions C13_write_released.

(* read sessions, closed or destroyed at any point (any number of reads first): every object the
   reader handed to the queue was returned by read() (the caller's) or deleted by the queue's destructor — each
   exactly once — and nothing stays queued *)
Theorem C13_read_released : forall cap buf c p k s, RPipe.reach cap buf c p k s -> RPipe.a_pc s = RPipe.ADone ->
  made s = somes (got s) ++ freed s /\ RPipe.q s = [].
Proof. exact read_released. Qed.
Print Assumptions C13_read_released.

(* the queue's destructor deletes exactly what is still queued *)
Theorem C13_queue_destructor : forall s,
  let '(s', del) := oq_destroy s in del = q_items s /\ q_items s' = [] /\ OQModel.q_abort s' = true.
Proof. exact oq_destroy_releases. Qed.
Print Assumptions C13_queue_destructor.
