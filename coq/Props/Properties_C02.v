(* Properties_C02.v — C02: objects from Vector-produced logs survive decode-then-encode byte for byte.
   Every image of a class of the library that the regenerated decoder reads completely (it succeeds, the stream stays good, it
   does not read past the image; C02_nonvacuous: at least 150 images are such) encodes back to the same bytes, followed by at
   most 3 zero bytes of padding.  The theorem ranges over EVERY object image of the reference logs shipped with the
   repository (cut out independently of the library by translator/images2coq.py on every run: all
   containers of all .blf files in events_from_binlog / events_from_converter and the .lobj samples,
   distinct images up to 4 KiB) — a finite, fully enumerated domain, evaluated in the kernel on the
   codec programs regenerated from the current source.
   PARTIAL: the second sentence of the property (any substitution of field values that leaves the
   shape unchanged) is not a theorem: it is decided by differential execution of model and
   implementation on byte / 16- / 32-bit substitutions of every image. *)
From VB Require Import Base IR Sem Tables.
From VB Require Import Classes Consts Common RefImages ImagesEq.
Local Open Scope Z_scope.

Theorem C02_reference_images : forall code b, In (code, b) ref_images ->
  forall r, decodes (class_of_code code) b = Some r -> class_of_code code <> 0 ->
  exists s' b', enc cs default_cap (class_of_code code) r = Ok (s', b') /\
    ztake (zlen b) b' = b /\ Forall (fun x => x = 0) (zdrop (zlen b) b') /\ zlen b' - zlen b <= 3.
Proof. exact images_reencode. Qed.
Print Assumptions C02_reference_images.

Theorem C02_nonvacuous : 150 <=? n_complete = true.
Proof. exact many_complete. Qed.
