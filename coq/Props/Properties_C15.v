(* Properties_C15.v — C15: the in-memory stream is a byte FIFO with iostream-like state.
   Statements only.  The model is Lib/UFModel.v (UncompressedFile method by method, as written);
   its wait predicates and notifications are proved equal to the terms translated from the source
   on every run (C15_guards_are_code); the rest of the tie is the `uf` correspondence harness.
   The byte-order statement is C15_refines: for every history the property describes (any length,
   any chunking, any default container size 1..2^32-1) the model behaves as the flat byte queue of
   Lib/UFSpec.v — every call the byte queue accepts is enabled, same bytes delivered, same accessor values after every call —
   and C15_fifo / C15_buf_is_writes say what that byte queue guarantees.  Histories the byte queue
   rejects (bq_step = None: a read of unwritten or possibly-dropped bytes, container size 0) are
   outside the property; the correspondence run still compares model and code on them. *)
From VB Require Import Base IR Sem Mon UFModel UFFacts UFSpec UFRefine.
From VB Require Import Sync SyncDefs SyncEq.
Local Open Scope Z_scope.

Theorem C15_guards_are_code : forall s, wfu s ->
  (forall n, 0 <= n < B62 -> ueval s n 0 (pred1 "read") = Ok (ub2z (uf_read_guard s n), TBool)) /\
  ueval s 0 0 (pred1 "write@bytes") = Ok (ub2z (uf_write_guard s), TBool) /\
  ueval s 0 0 (pred1 "write@container") = Ok (ub2z (uf_writec_guard s), TBool).
Proof. intros s W. repeat split; auto using read_guard_eq, write_guard_eq, writec_guard_eq. Qed.
Print Assumptions C15_guards_are_code.

Theorem C15_notifications_are_code :
  unotes "read" = [CVU_tellg; CVU_tellg] /\ unotes "seekg" = [CVU_tellg] /\ unotes "write@bytes" = [CVU_tellp] /\
  unotes "write@container" = [CVU_tellp] /\ unotes "abort" = [CVU_tellg; CVU_tellp] /\ unotes "setFileSize" = [CVU_tellp] /\
  unotes "nextLogContainer" = [] /\ unotes "dropOldData" = [] /\ unotes "setBufferSize" = [] /\ unotes "setDefaultLogContainerSize" = [].
Proof. exact notes_eq. Qed.
Print Assumptions C15_notifications_are_code.

(* read(n) first raises the buffer size to n when the request is larger (and tells the writer), then waits:
   the statement as it stands in the source *)
Theorem C15_read_grows_buffer : exists pred rest,
  umeth "read" = TSeq TLock (TSeq (TIf (XBin OGt (XArg I64) (XVar 5)) (TSeq (TSet 5 (XArg I64)) (TNotify CVU_tellg)) TSkip) (TSeq (TWait CVU_tellp pred) rest))
  /\ nth_error (map (fun x => fst (fst x)) uf_vars) 5 = Some "m_bufferSize"%string.
Proof. exact read_grows_buffer. Qed.
Print Assumptions C15_read_grows_buffer.

(* dropping old data never discards a byte that has not been read: for every container list *)
Theorem C15_drop_keeps_unread : forall s x, u_tellg s <= x ->
  containing (u_data (uf_drop s)) x = containing (u_data s) x.
Proof. exact drop_keeps_unread. Qed.
Print Assumptions C15_drop_keeps_unread.

Theorem C15_drop_frame : forall s,
  let s' := uf_drop s in
  u_tellg s' = u_tellg s /\ u_tellp s' = u_tellp s /\ u_fsz s' = u_fsz s /\ u_rd s' = u_rd s /\ u_gcount s' = u_gcount s /\
  exists gone, u_data s = gone ++ u_data s' /\
    Forall (fun c => c_end c <= u_tellg s /\ c_end c <= u_tellp s /\ c_end c <= u_fsz s) gone /\
    match u_data s' with [] => True | c :: _ => u_tellg s < c_end c \/ u_tellp s < c_end c \/ u_fsz s < c_end c end.
Proof. exact drop_frame. Qed.
Print Assumptions C15_drop_frame.

(* put position: advances by exactly the bytes written, for every chunking and container size *)
Theorem C15_write_advances : forall s bs s' notes, uf_write s bs = Some (s', notes) ->
  u_tellp s' = u_tellp s + Z.of_nat (length bs) /\ u_tellg s' = u_tellg s /\ u_gcount s' = u_gcount s /\ u_rd s' = u_rd s /\
  u_tellp s' <= u_fsz s' /\ (u_fsz s' = u_fsz s \/ u_fsz s' = u_tellp s') /\ notes = [CVU_tellp].
Proof. exact write_advances. Qed.
Print Assumptions C15_write_advances.

(* read(n): gcount = bytes delivered = advance of the get position <= max(0, n); eof|fail set by a request that crosses the declared
   end, cleared by one of n > 0 that does not; a request above the buffer size raises it *)
Theorem C15_read_counts : forall s n,
  let '(s', bytes, notes) := uf_read s n in
  u_gcount s' = Z.of_nat (length bytes) /\ u_tellg s' = u_tellg s + u_gcount s' /\
  0 <= u_gcount s' <= Z.max 0 n /\ (u_fsz s < n + u_tellg s -> u_tellg s' <= Z.max (u_tellg s) (u_fsz s)) /\
  (u_fsz s < n + u_tellg s -> uf_good s' = false /\ uf_eof s' = true) /\ (n + u_tellg s <= u_fsz s -> 0 < n -> uf_good s' = true /\ uf_eof s' = false) /\
  (n + u_tellg s <= u_fsz s -> n <= 0 -> u_rd s' = u_rd s) /\
  u_tellp s' = u_tellp s /\ u_data s' = u_data s /\ u_fsz s' = u_fsz s /\ u_buf s' = Z.max (u_buf s) n /\ In CVU_tellg notes.
Proof. exact read_counts. Qed.
Print Assumptions C15_read_counts.

Theorem C15_seekg_clamped : forall s off,
  let '(s', notes) := uf_seekg s off in
  u_tellg s' = Z.min (u_tellg s + off) (u_fsz s) /\ u_tellp s' = u_tellp s /\ u_data s' = u_data s /\ u_rd s' = u_rd s /\ notes = [CVU_tellg].
Proof. exact seekg_clamped. Qed.
Print Assumptions C15_seekg_clamped.

Theorem C15_abort_releases : forall s n,
  let '(s', notes) := uf_abort s in
  uf_read_guard s' n = true /\ uf_write_guard s' = true /\ uf_writec_guard s' = true /\ In CVU_tellg notes /\ In CVU_tellp notes.
Proof. exact uf_abort_releases. Qed.
Print Assumptions C15_abort_releases.

(* the in-memory stream is a byte FIFO for any chunking: the model refines the flat byte queue *)
Theorem C15_refines : forall ops q' outs, bq_run bq_init ops = Some (q', outs) ->
  exists s', uf_run uf_init ops = Some (s', outs) /\ uf_obs s' = bq_obs q'.
Proof. exact uf_refines. Qed.
Print Assumptions C15_refines.

Theorem C15_refines_prefix : forall ops1 ops2 q' outs, bq_run bq_init (ops1 ++ ops2) = Some (q', outs) ->
  exists q1 outs1 s1, bq_run bq_init ops1 = Some (q1, outs1) /\ uf_run uf_init ops1 = Some (s1, outs1) /\ uf_obs s1 = bq_obs q1.
Proof. exact uf_refines_prefix. Qed.
Print Assumptions C15_refines_prefix.

(* one step, from any related pair of states (not only those reachable from the initial one) *)
Theorem C15_refine_step : forall s q o q' out, R s q -> bq_step q o = Some (q', out) ->
  uenabled s o = true /\ exists s', ustep s o = Some (s', out) /\ R s' q'.
Proof. exact refine_step. Qed.
Print Assumptions C15_refine_step.

(* what the byte queue guarantees: its string is everything written, in order ... *)
Theorem C15_buf_is_writes : forall ops q q' outs, bq_run q ops = Some (q', outs) ->
  q_buf q' = q_buf q ++ concat (map wbytes ops).
Proof. exact bq_buf_is_writes. Qed.
Print Assumptions C15_buf_is_writes.

(* ... and without seeks the reads together deliver one contiguous stretch of it, however cut *)
Theorem C15_fifo : forall ops q q' outs, 0 <= q_hor q -> bq_run q ops = Some (q', outs) -> existsb is_seek ops = false ->
  q_g q <= q_g q' /\ concat outs = slice (q_g q) (q_g q' - q_g q) (q_buf q ++ concat (map wbytes ops)).
Proof. exact bq_fifo. Qed.
Print Assumptions C15_fifo.

(* non-vacuity: a history with writes across container boundaries, an appended container, a closed
   container, drops and a backward seek is accepted by the byte queue *)
Example C15_refines_nonvacuous :
  match bq_run bq_init [USetDcs 4; UWrite [1;2;3]; UNext; UWriteC [4;5]; UWrite [6;7;8;9;10]; URead 4; USeekg (-1); UDrop; URead 7; UDrop; USetFileSize 10; URead 1] with
  | Some (q, outs) => concat outs = [1;2;3;4;4;5;6;7;8;9;10] /\ q_g q = 10 /\ q_rd q = 6
  | None => False end.
Proof. vm_compute. repeat split; reflexivity. Qed.
