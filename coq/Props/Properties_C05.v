(* Properties_C05.v — C05: the statistics header of a finished file is exact.
   Statements only; model and tie as for C04.  The reader half of the property (running counters
   equal the header values for every complete file) is decided by the correspondence run: the
   extracted read_session, the real reader and the header are compared on every file written and on
   the reference logs.  Proved on the reader side, at the level of the uncompressed stream: C05_reader_counts_as_header —
   for ANY list of well-formed objects, the objectCount that write_session stores in the header is the value of the parser
   stage's running counter (currentObjectCount) after it has read those objects back (both: the number of objects modulo 2^32.  Each
   object is handed to write_session tagged `counted o`; every well-formed object is counted: no wobj_ok object has type 115: the factory
   maps 115 to RestorePointContainer, a class in rt_exception_names, and wobj_ok excludes those).  PARTIAL: the uncompressed-size counter of the inflating stage
   (currentUncompressedFileSize) against the header is decided by the correspondence run only. *)
From VB Require Import Base IR Sem Tables BaseFacts FileModel FileFacts.
From VB Require Import Classes Consts Common FileDefs FileEq StreamRT.
Local Open Scope Z_scope.

Theorem C05_header : forall deflate cap cfg hdr objs f, f_write_session deflate cap cfg hdr objs = Ok f ->
  let U := concat (map fst objs) in
  exists ps conts hdr' hbytes h0 h00 hbytes0,
    f = hbytes ++ concat conts /\
    enc cs cap C_stats hdr' = Ok (h0, hbytes) /\ enc cs cap C_stats hdr = Ok (h00, hbytes0) /\
    Forall2 (fun p c => lce deflate cap (w_level cfg) p = Ok c) (if w_restore cfg then ps ++ [[]] else ps) conts /\
    ps = pieces (length U) (w_cs cfg) U /\ concat ps = U /\
    (* object count: the objects written, restore-point objects (type 115) excluded *)
    hdr' (fid_of "FileStatistics" "objectCount") = VInt (Z.of_nat (length (filter snd objs)) mod 2 ^ 32) /\
    (* uncompressed size: header size + per container (32 + payload) *)
    hdr' (fid_of "FileStatistics" "uncompressedFileSize") =
      VInt ((geti hdr (fid_of "FileStatistics" "statisticsSize") + zlen U + 32 * zlen (if w_restore cfg then ps ++ [[]] else ps)) mod 2 ^ 64) /\
    (* file size: bytes of the header as first written + bytes of all containers *)
    hdr' (fid_of "FileStatistics" "fileSize") = VInt (zlen hbytes0 + zlen (concat conts)) /\
    (* restore-point offset: start of the trailing container when enabled, untouched otherwise *)
    (w_restore cfg = true -> hdr' (fid_of "FileStatistics" "restorePointsOffset") = VInt (zlen hbytes0 + zlen (concat (firstn (length ps) conts)))) /\
    (w_restore cfg = false -> hdr' (fid_of "FileStatistics" "restorePointsOffset") = hdr (fid_of "FileStatistics" "restorePointsOffset")) /\
    (* every other caller-supplied member is encoded as supplied *)
    (forall g, g <> fid_of "FileStatistics" "fileSize" -> g <> fid_of "FileStatistics" "uncompressedFileSize" ->
               g <> fid_of "FileStatistics" "objectCount" -> g <> fid_of "FileStatistics" "restorePointsOffset" -> hdr' g = hdr g).
Proof. exact file_shape. Qed.
Print Assumptions C05_header.

Theorem C05_reader_counts_as_header : forall deflate cap cfg hdr (objs : list wobj) f, Forall wobj_ok objs ->
  f_write_session deflate cap cfg hdr (map (fun o => (w_bytes o, counted o)) objs) = Ok f ->
  let U := concat (map w_bytes objs) in
  exists hdr' hbytes h0 conts, f = hbytes ++ concat conts /\ enc cs cap C_stats hdr' = Ok (h0, hbytes) /\
    hdr' (fid_of "FileStatistics" "objectCount") =
      VInt (snd (fst (obj_loop cs scan_p default_cap factory_table C_ohb fid_objectSize fid_objectType (2 * length U + 16) (mk_ustream U) [] 0))).
Proof.
  intros deflate cap cfg hdr objs f Hall Hw U.
  destruct (file_shape deflate cap cfg hdr _ f Hw) as (ps & conts & hdr' & hbytes & h0 & h00 & hbytes0 & E1 & E2 & _ & _ & _ & _ & Hc & _).
  exists hdr', hbytes, h0, conts. split; [exact E1|]. split; [exact E2|].
  rewrite Hc, counted_tags. unfold U. rewrite (stream_count objs Hall). reflexivity.
Qed.
Print Assumptions C05_reader_counts_as_header.

(* non-vacuity: a well-formed object (StreamRT.ex_can_ok); it is counted, as every well-formed object is (no wobj_ok object has type 115:
   the factory maps 115 to RestorePointContainer, a class in rt_exception_names, and wobj_ok excludes those) *)
Example C05_count_example : match ex_obj "CanMessage" 1 48 48 with Some o => wobj_ok o /\ counted o = true | None => False end.
Proof.
  pose proof ex_can_ok as H. pose proof (ex_obj_code "CanMessage" 1 48 48) as C.
  destruct (ex_obj "CanMessage" 1 48 48) as [o|]; [|exact H].
  split; [exact H|]. unfold counted. rewrite (C o eq_refl). reflexivity.
Qed.
