(* Properties_C14.v — C14: output bytes are a deterministic function of objects and configuration.
   Statements only.  In a functional model determinism of the encoders is free; what is proved is
   (a) no dependence on the schedule (the containers of every finished write session are
   FileModel.pieces of the concatenated encodings), (b) no dependence on the container size /
   level for the payload, (c) fresh objects are fully determined (C17_determined, in Properties_C17).
   (d) no emitted byte depends on indeterminate memory: the encoder model marks a byte taken from an
   uninitialised member (C14_only_determined_bytes: if the members the write program may emit hold determined
   values, only real bytes come out — any class, any variant; C14_fresh_encodes_real_bytes: true of every
   freshly constructed object).  The tie of (d) to the code — that the model's "uninitialised" is the code's —
   is the poisoned-memory correspondence run (several fill patterns). *)
From Coq Require Import String List Bool ZArith Lia.
From VB Require Import Base IR Sem FileModel FileFacts WPipe PipeSkel FileSkel SkelEq DefFacts.
From VB Require Import Classes Consts Common C17 DefEq.
Import ListNotations.
Local Open Scope Z_scope.

Theorem C14_schedule_independent : forall cap buf cs cap' buf', 1 <= cs ->
  forall l s s', WPipe.reach cap buf cs l s -> WPipe.finished s -> WPipe.reach cap' buf' cs l s' -> WPipe.finished s' ->
  out s = out s'.
Proof.
  intros cap buf cs cap' buf' H l s s' R F R' F'.
  destruct (write_determinate cap buf cs H l s R F) as (A & _). destruct (write_determinate cap' buf' cs H l s' R' F') as (A' & _).
  rewrite A, A'. reflexivity.
Qed.
Print Assumptions C14_schedule_independent.

Theorem C14_payload_config_independent : forall n1 n2 (U : list Z),
  concat (pieces (length U) n1 U) = concat (pieces (length U) n2 U).
Proof. intros. apply pieces_config_independent. Qed.
Print Assumptions C14_payload_config_independent.

(* padding is a fresh zero-filled vector on every call; no function on the write path keeps state
   between calls (no function-local statics): facts about the statement skeletons regenerated from
   AbstractFile.cpp / File.cpp *)
Theorem C14_stateless_write_path :
  skel_skipp = skipp_expected /\
  no_static skel_uncompressedFile2CompressedFile = true /\ no_static skel_readWriteQueue2UncompressedFile = true /\
  no_static skel_close = true /\ no_static skel_write = true.
Proof. exact stateless_write_path. Qed.
Print Assumptions C14_stateless_write_path.

Theorem C14_only_determined_bytes : forall cs cap c s s' out,
  (forall f, In f (emit_fields (prog_of cs c M_write)) -> defined_val (s f)) ->
  enc cs cap c s = Ok (s', out) -> Forall byte out.
Proof. exact enc_defined. Qed.
Print Assumptions C14_only_determined_bytes.

Theorem C14_fresh_encodes_real_bytes : forall c, In c object_classes -> ~ In c init_exceptions ->
  forall s' out, enc Common.cs default_cap c (fresh Common.cs c) = Ok (s', out) -> Forall byte out.
Proof. exact fresh_encodes_real_bytes. Qed.
Print Assumptions C14_fresh_encodes_real_bytes.
