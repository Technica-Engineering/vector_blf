(* StreamFacts.v — the in-memory stream.  A stream of that flavour whose zipper is in step with its get position is its
   data, its position and its flags (ustream_at); reading and seeking are arithmetic on the position (read_at, seek_at).
   On well-positioned states reads and forward seeks consume the remaining bytes exactly. *)
From VB Require Import Base IR Sem BaseFacts.
Local Open Scope Z_scope.

Lemma zip_take_spec n : forall b a,
  zip_take n b a = (firstn n a, (rev (firstn n a) ++ b, skipn n a)).
Proof.
  induction n as [|n IH]; intros b a; [reflexivity|].
  destruct a as [|x a']; [reflexivity|].
  cbn [zip_take firstn skipn rev]. rewrite IH. rewrite <- app_assoc. reflexivity.
Qed.

Lemma zip_fwd_gen n : forall b a m,
  zip_fwd n b a m = (rev (firstn n a) ++ b, skipn n a, m + Z.of_nat (Nat.min n (length a))).
Proof.
  induction n as [|n IH]; intros b a m.
  - cbn. destruct a; f_equal; lia.
  - destruct a as [|x a']; [cbn; f_equal; lia|].
    cbn [zip_fwd firstn skipn rev length Nat.min]. rewrite IH. rewrite <- app_assoc. cbn [app]. f_equal. lia.
Qed.

Lemma s_read_len n i : zlen (fst (s_read n i)) <= Z.max 0 n.
Proof.
  unfold s_read. destruct (s_sticky i).
  - destruct (negb (s_good i)); [cbn; lia|]. destruct (n <=? 0) eqn:E; [cbn; lia|]. destruct (closed_now i); [cbn; lia|].
    rewrite zip_take_spec. cbn [fst]. rewrite zlen_firstn. destruct (_ <? n) eqn:F; lia.
  - destruct (_ || _); [cbn; lia|]. rewrite zip_take_spec. cbn [fst]. rewrite zlen_firstn. destruct (_ <? _ + _) eqn:F; lia.
Qed.

Definition ustream_at (d : list Z) (p : Z) (g e : bool) (o : option nat) : istream :=
  {| s_before := rev (ztake p d); s_after := zdrop p d; s_cur := Z.max 0 p; s_pos := p; s_size := zlen d;
     s_good := g; s_eof := e; s_sticky := false; s_open := o |}.

Lemma data_at d p g e o : s_data (ustream_at d p g e o) = d.
Proof. unfold s_data, ustream_at. cbn. rewrite rev_append_rev, rev_involutive. apply ztake_zdrop. Qed.

Lemma stream_at i : s_sticky i = false -> s_cur i = zlen (s_before i) -> s_cur i = Z.max 0 (s_pos i) ->
  s_size i = zlen (s_before i) + zlen (s_after i) ->
  i = ustream_at (s_data i) (s_pos i) (s_good i) (s_eof i) (s_open i).
Proof.
  destruct i as [b a c p z g e st o]. unfold ustream_at, s_data. cbn. intros -> Hc Hm Hz. rewrite rev_append_rev.
  assert (Hb : Z.to_nat p = length (rev b)) by (rewrite rev_length; unfold zlen in *; lia).
  unfold ztake, zdrop. rewrite Hb, firstn_app, skipn_app, Nat.sub_diag, firstn_all, skipn_all. cbn [firstn skipn app].
  rewrite app_nil_r, rev_involutive, zlen_app, zlen_rev. f_equal; lia.
Qed.

(* len and short are what TermFacts calls rd_len and rd_short *)
Lemma read_at n d p g e o : p <= zlen d ->
  let short := zlen d <? n + p in
  let n' := if short then zlen d - p else n in
  let len := if (n' <=? 0) || (p <? 0) then 0 else n' in
  let keep := negb short && (n <=? 0) in
  s_read n (ustream_at d p g e o) =
  (ztake len (zdrop p d), ustream_at d (p + len) (if keep then g else negb short) (if keep then e else short) o).
Proof.
  intros Hp short n' len keep. unfold s_read. cbn [ustream_at s_sticky s_size s_pos s_before s_after s_cur s_good s_eof s_open].
  fold short. fold n'. unfold len. destruct ((n' <=? 0) || (p <? 0)) eqn:E.
  - unfold ustream_at. cbn. rewrite !Z.add_0_r. reflexivity.
  - assert (Hn : 0 < n' <= zlen d - p /\ 0 <= p) by (unfold n', short in *; destruct (zlen d <? n + p) eqn:S; lia).
    rewrite zip_take_spec. fold (ztake n' (zdrop p d)). fold (zdrop n' (zdrop p d)).
    unfold ustream_at. rewrite ztake_add, zdrop_add, rev_app_distr, zlen_ztake by (rewrite ?zlen_zdrop; lia).
    fold keep. f_equal. f_equal; lia.
Qed.

Lemma zip_fwd_at k b a : 0 <= k <= zlen a -> zip_fwd (Z.to_nat k) b a 0 = (rev (ztake k a) ++ b, zdrop k a, k).
Proof. intros Hk. rewrite zip_fwd_gen. unfold ztake, zdrop, zlen in *. f_equal. lia. Qed.

(* the zipper of d with its cursor at c, moved to q (to 0 if q is negative), is the zipper of d with its cursor there *)
Lemma zip_move_at d c q : 0 <= c <= zlen d -> q <= zlen d ->
  zip_move (rev (ztake c d)) (zdrop c d) c q = (rev (ztake (Z.max 0 q) d), zdrop (Z.max 0 q) d, Z.max 0 q).
Proof.
  intros Hc Hq. unfold zip_move. destruct (c <=? q) eqn:E.
  - (* forward: q - c further elements move from after to before *)
    set (m := q - c). rewrite zip_fwd_at by (rewrite zlen_zdrop; lia). replace (Z.max 0 q) with (c + m) by lia.
    rewrite ztake_add, zdrop_add, rev_app_distr by lia. reflexivity.
  - (* backward: the last c - max 0 q elements of before move back *)
    set (q0 := Z.max 0 q). set (m := c - q0). replace c with (q0 + m) by lia.
    rewrite ztake_add, zdrop_add, rev_app_distr by lia.
    assert (Hl : zlen (rev (ztake m (zdrop q0 d))) = m) by (rewrite zlen_rev, zlen_ztake; rewrite ?zlen_zdrop; lia).
    rewrite zip_fwd_at by (rewrite zlen_app, Hl; pose proof (zlen_nonneg (rev (ztake q0 d))); lia).
    rewrite ztake_app_len, zdrop_app_len, rev_involutive, ztake_zdrop by exact Hl. f_equal. lia.
Qed.

Lemma seek_at off d p g e o : p <= zlen d ->
  s_seek off (ustream_at d p g e o) = ustream_at d (Z.min (p + off) (zlen d)) g e o.
Proof.
  intros Hp. unfold s_seek. cbn [ustream_at s_sticky s_size s_pos s_before s_after s_cur s_good s_eof s_open].
  set (q := Z.min (p + off) (zlen d)). pose proof (zlen_nonneg d) as Hd.
  assert (Hx : forall x, ztake x d = ztake (Z.max 0 x) d /\ zdrop x d = zdrop (Z.max 0 x) d)
    by (intros x; unfold ztake, zdrop; replace (Z.to_nat (Z.max 0 x)) with (Z.to_nat x) by lia; auto).
  rewrite (proj1 (Hx p)), (proj2 (Hx p)), zip_move_at by lia. unfold ustream_at. rewrite (proj1 (Hx q)), (proj2 (Hx q)). reflexivity.
Qed.

(* a stream of the in-memory flavour whose cursor is inside the data *)
Definition nstream (s : istream) : Prop :=
  s_sticky s = false /\ s_cur s = zlen (s_before s) /\ s_pos s = s_cur s /\
  s_size s = zlen (s_before s) + zlen (s_after s).

Lemma nstream_mk b : nstream (mk_ustream b).
Proof. unfold nstream, mk_ustream; cbn. repeat split; try reflexivity. Qed.

Lemma data_len i : zlen (s_data i) = zlen (s_before i) + zlen (s_after i).
Proof. unfold s_data. rewrite rev_append_rev, zlen_app, zlen_rev. reflexivity. Qed.

Lemma nstream_at s : nstream s -> exists d p g e o, 0 <= p <= zlen d /\ s = ustream_at d p g e o.
Proof.
  intros (H1 & H2 & H3 & H4). exists (s_data s), (s_pos s), (s_good s), (s_eof s), (s_open s).
  pose proof (zlen_nonneg (s_before s)). pose proof (zlen_nonneg (s_after s)).
  split; [rewrite data_len; lia|apply stream_at; (assumption || lia)].
Qed.

Lemma nstream_ustream d p g e o : 0 <= p <= zlen d -> nstream (ustream_at d p g e o).
Proof.
  intros Hp. unfold nstream, ustream_at. cbn. rewrite zlen_rev, zlen_ztake, zlen_zdrop by lia. repeat split; lia.
Qed.

(* s after an operation has consumed n bytes; good, eof: the flags that operation leaves *)
Definition advance (n : Z) (s : istream) (good eof : bool) : istream :=
  {| s_before := rev (ztake n (s_after s)) ++ s_before s; s_after := zdrop n (s_after s);
     s_cur := s_cur s + n; s_pos := s_pos s + n; s_size := s_size s;
     s_good := good; s_eof := eof; s_sticky := false; s_open := s_open s |}.

Lemma advance_at n d p g e o g' e' : 0 <= p -> 0 <= n ->
  advance n (ustream_at d p g e o) g' e' = ustream_at d (p + n) g' e' o.
Proof.
  intros Hp Hn. unfold advance, ustream_at. cbn. rewrite ztake_add, zdrop_add, rev_app_distr by lia. f_equal. lia.
Qed.

Lemma nstream_at_end i : nstream i -> s_after i = [] -> s_pos i = s_size i.
Proof. intros (_ & H2 & H3 & H4) Ha. rewrite Ha in H4. change (zlen (@nil Z)) with 0 in H4. lia. Qed.

Lemma nstream_advance n s g e : nstream s -> 0 <= n <= zlen (s_after s) -> nstream (advance n s g e).
Proof.
  intros Hs Hn. destruct (nstream_at s Hs) as (d & p & g0 & e0 & o & Hp & ->). cbn [ustream_at s_after] in Hn.
  rewrite zlen_zdrop in Hn by lia. rewrite advance_at by lia. apply nstream_ustream. lia.
Qed.

Lemma s_read_exact n s : nstream s -> 0 <= n <= zlen (s_after s) ->
  s_read n s = (ztake n (s_after s), advance n s (if 0 <? n then true else s_good s) (if 0 <? n then false else s_eof s)).
Proof.
  intros Hs Hn. destruct (nstream_at s Hs) as (d & p & g & e & o & Hp & ->). cbn [ustream_at s_after s_good s_eof] in *.
  rewrite zlen_zdrop in Hn by lia. rewrite advance_at, read_at by lia.
  replace (zlen d <? n + p) with false by lia. cbn [negb andb]. replace (p <? 0) with false by lia. rewrite orb_false_r.
  destruct (Z.eqb_spec n 0) as [->|]; [reflexivity|]. replace (n <=? 0) with false by lia. replace (0 <? n) with true by lia. reflexivity.
Qed.

Lemma s_seek_fwd k s : nstream s -> 0 <= k <= zlen (s_after s) ->
  s_seek k s = advance k s (s_good s) (s_eof s).
Proof.
  intros Hs Hk. destruct (nstream_at s Hs) as (d & p & g & e & o & Hp & ->). cbn [ustream_at s_after s_good s_eof] in *.
  rewrite zlen_zdrop in Hk by lia. rewrite advance_at, seek_at by lia. f_equal. lia.
Qed.

(* a stream that stands before b ++ rest, after a read of, a seek over, or the search finding exactly b: it stands before rest *)
Lemma read_over i b rest : nstream i -> s_after i = b ++ rest ->
  exists i1, s_read (zlen b) i = (b, i1) /\ nstream i1 /\ s_after i1 = rest /\ (s_good i = true -> s_good i1 = true).
Proof.
  intros Hi Ha. pose proof (zlen_nonneg b). pose proof (zlen_nonneg rest).
  assert (Hn : 0 <= zlen b <= zlen (s_after i)) by (rewrite Ha, zlen_app; lia).
  eexists. split; [rewrite (s_read_exact _ _ Hi Hn), Ha, ztake_app_exact; reflexivity|].
  split; [apply nstream_advance; assumption|]. split; [cbn [advance s_after]; rewrite Ha; apply zdrop_app_exact|].
  cbn [advance s_good]. destruct (0 <? zlen b); auto.
Qed.

Lemma seek_over i b rest : nstream i -> s_after i = b ++ rest ->
  nstream (s_seek (zlen b) i) /\ s_after (s_seek (zlen b) i) = rest /\ s_good (s_seek (zlen b) i) = s_good i.
Proof.
  intros Hi Ha. pose proof (zlen_nonneg b). pose proof (zlen_nonneg rest).
  assert (Hk : 0 <= zlen b <= zlen (s_after i)) by (rewrite Ha, zlen_app; lia).
  rewrite (s_seek_fwd _ _ Hi Hk). split; [apply nstream_advance; assumption|]. split; [|reflexivity].
  cbn [advance s_after]. rewrite Ha. apply zdrop_app_exact.
Qed.

Lemma seek_back_advance n k s g e : nstream s -> 0 <= n <= zlen (s_after s) -> 0 <= n + k -> k <= 0 ->
  s_seek k (advance n s g e) = advance (n + k) s g e.
Proof.
  intros Hs Hn Hk Hk'. destruct (nstream_at s Hs) as (d & p & g0 & e0 & o & Hp & ->). cbn [ustream_at s_after] in Hn.
  rewrite zlen_zdrop in Hn by lia. rewrite !advance_at, seek_at by lia. f_equal. lia.
Qed.

Lemma advance_advance a b s g1 e1 g2 e2 : 0 <= a -> 0 <= b ->
  advance b (advance a s g1 e1) g2 e2 = advance (a + b) s g2 e2.
Proof.
  intros Ha Hb. unfold advance. cbn [s_after s_before s_cur s_pos s_size s_open].
  rewrite ztake_add, zdrop_add, rev_app_distr, app_assoc by lia. f_equal; lia.
Qed.

Lemma merge_full tmp w : zlen w = 4 -> merge_scalar 4 tmp w = le_dec w.
Proof. intros Hl. unfold merge_scalar. rewrite Hl. change (zdrop 4 (le_enc 4 tmp)) with (@nil Z). rewrite app_nil_r. reflexivity. Qed.

(* a stream that has failed at its end stops the search, whichever of the two exit tests the source has *)
Lemma scan_stop_failed sp i : s_good i = false -> s_eof i = true -> scan_stop sp i = true.
Proof. intros G E. unfold scan_stop. rewrite G, E. destruct (sp_stop_on_fail sp); reflexivity. Qed.

(* one round on 4 bytes that are there: they are the signature, or the search goes on where the rule for them says *)
Lemma scan_full sp n tmp s w r : nstream s -> s_after s = w ++ r -> zlen w = 4 ->
  scan_loop sp (S n) tmp s =
  if le_dec w =? sp_sig sp then Ok (le_dec w, advance 4 s true false)
  else scan_loop sp n (le_dec w) (let k := scan_rule (sp_rules sp) (le_dec w) in
                                   if k =? 0 then advance 4 s true false else s_seek k (advance 4 s true false)).
Proof.
  intros Hs Ha Hl. cbn [scan_loop].
  rewrite s_read_exact; [|exact Hs|rewrite Ha, zlen_app, Hl; pose proof (zlen_nonneg r); lia].
  rewrite Ha, (ztake_app_len 4), merge_full by exact Hl. change (0 <? 4) with true. cbv iota.
  replace (scan_stop sp (advance 4 s true false)) with false by (unfold scan_stop; destruct (sp_stop_on_fail sp); reflexivity).
  reflexivity.
Qed.

Lemma scan_over sp n i rest : nstream i -> 0 <= sp_sig sp < 2 ^ 32 -> s_after i = le_enc 4 (sp_sig sp) ++ rest ->
  exists i1, scan_loop sp (S n) 0 i = Ok (sp_sig sp, i1) /\ nstream i1 /\ s_after i1 = rest /\ s_good i1 = true.
Proof.
  intros Hi Hsig Ha. assert (Hl : zlen (le_enc 4 (sp_sig sp)) = 4) by (apply zlen_le_enc; lia).
  exists (advance 4 i true false). rewrite (scan_full sp n 0 i _ rest Hi Ha Hl), le_dec_enc, Z.eqb_refl by lia.
  split; [reflexivity|]. split; [|split; [cbn [advance s_after]; rewrite Ha; apply zdrop_app_len, Hl|reflexivity]].
  apply nstream_advance; [exact Hi|]. rewrite Ha, zlen_app, Hl. pose proof (zlen_nonneg rest). lia.
Qed.
