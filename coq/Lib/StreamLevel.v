(* StreamLevel.v — facts about streams needed to chain decoders over a whole uncompressed stream (C01, stream level):
   reading and seeking only move the cursor (the data is the same), and seeking back over what was just consumed
   restores the stream. *)
From VB Require Import Base IR Sem BaseFacts StreamFacts ReadProg.
Local Open Scope Z_scope.

Lemma data_zip (b a : list Z) n : rev_append (rev (firstn n a) ++ b) (skipn n a) = rev_append b a.
Proof.
  rewrite !rev_append_rev. rewrite rev_app_distr, rev_involutive. rewrite <- app_assoc. rewrite firstn_skipn. reflexivity.
Qed.

Lemma s_read_data n i : s_data (snd (s_read n i)) = s_data i.
Proof.
  unfold s_read, s_data. destruct (s_sticky i).
  - destruct (negb (s_good i)); [reflexivity|]. destruct (n <=? 0); [reflexivity|]. destruct (closed_now i); [reflexivity|].
    rewrite zip_take_spec. cbn [snd s_before s_after]. apply data_zip.
  - destruct ((_ <=? 0) || _); [reflexivity|]. rewrite zip_take_spec. cbn [snd s_before s_after]. apply data_zip.
Qed.

Lemma zip_move_data b a cur p : let '(b', a', _) := zip_move b a cur p in rev_append b' a' = rev_append b a.
Proof.
  unfold zip_move. destruct (cur <=? p).
  - rewrite zip_fwd_gen. apply data_zip.
  - rewrite zip_fwd_gen. rewrite !rev_append_rev. rewrite app_assoc. f_equal.
    rewrite <- rev_app_distr. rewrite firstn_skipn. reflexivity.
Qed.

Lemma s_seek_data off i : s_data (s_seek off i) = s_data i.
Proof.
  unfold s_seek, s_data. destruct (s_sticky i).
  - destruct (s_good i); [|reflexivity]. destruct (closed_now i || (s_pos i + off <? 0)); [reflexivity|].
    pose proof (zip_move_data (s_before i) (s_after i) (s_cur i) (s_pos i + off)) as H.
    destruct (zip_move _ _ _ _) as [[b a] c]. exact H.
  - pose proof (zip_move_data (s_before i) (s_after i) (s_cur i) (Z.min (s_pos i + off) (s_size i))) as H.
    destruct (zip_move _ _ _ _) as [[b a] c]. exact H.
Qed.

Lemma scan_data sp : forall n tmp i r i', scan_loop sp n tmp i = Ok (r, i') -> s_data i' = s_data i.
Proof.
  intros n tmp i r i'. apply (scan_inv sp (fun j => s_data j = s_data i) (fun j => s_data j = s_data i) (fun _ _ => True)); [|reflexivity].
  intros t j Hj. cbv zeta. rewrite s_read_data. split; [exact Hj|]. split; [|exact I].
  unfold scan_next. destruct (_ =? 0); [|rewrite s_seek_data]; rewrite s_read_data; exact Hj.
Qed.

Theorem run_r_data cs call sp cap : forall p s l i s' i', run_r cs call sp cap p s l i = Ok (s', i') -> s_data i' = s_data i.
Proof.
  intros p s l i s' i'. apply (run_r_inv cs call sp cap (fun _ => True) (fun j => s_data j = s_data i)); [| | |apply seeks_in_any|reflexivity].
  - intros n j H. rewrite s_read_data. exact H.
  - intros off j _ H. rewrite s_seek_data. exact H.
  - intros j r j1 H E. rewrite (scan_data sp _ _ _ _ _ E). exact H.
Qed.

Lemma consumed_pos i i1 (hdr rest : list Z) : nstream i -> nstream i1 -> s_data i1 = s_data i ->
  s_after i = hdr ++ rest -> s_after i1 = rest -> s_pos i1 = s_pos i + zlen hdr.
Proof.
  intros (_ & A2 & A3 & _) (_ & B2 & B3 & _) D Ha Ha1.
  apply (f_equal (@zlen Z)) in D. rewrite !data_len, Ha, Ha1, zlen_app in D. lia.
Qed.

(* i1: i after a decoder has consumed hdr — run_r_data gives the premise on the data, the round trip (s_after i' = rest) the
   last one; the flags stay those of i1 *)
Lemma seek_back_restores i i1 (hdr : list Z) rest' : nstream i -> nstream i1 ->
  s_data i1 = s_data i -> s_after i = hdr ++ rest' -> s_after i1 = rest' ->
  let i2 := s_seek (- zlen hdr) i1 in
  nstream i2 /\ s_after i2 = hdr ++ rest' /\ s_good i2 = s_good i1 /\ s_pos i2 = s_pos i /\ s_size i2 = s_size i.
Proof.
  intros Hi Hi1 D Ha Ha1. pose proof (consumed_pos i i1 hdr rest' Hi Hi1 D Ha Ha1) as L.
  destruct (nstream_at i Hi) as (d & p & g & e & o & Hp & ->).
  destruct (nstream_at i1 Hi1) as (d1 & p1 & g1 & e1 & o1 & Hp1 & ->). rewrite !data_at in D. subst d1.
  cbn [ustream_at s_after s_good s_pos s_size] in *.
  rewrite seek_at by lia. replace (Z.min (p1 + - zlen hdr) (zlen d)) with p by lia.
  split; [apply nstream_ustream; exact Hp|]. repeat split. exact Ha.
Qed.
