(* FileFacts.v — theorems about the file-layer model that do not depend on the generated codecs. *)
From VB Require Import Base IR Sem BaseFacts FileModel.
Local Open Scope Z_scope.

Lemma pieces_concat : forall fuel n l, concat (pieces fuel n l) = l.
Proof.
  induction fuel as [|f IH]; intros n l; cbn [pieces].
  - cbn. apply app_nil_r.
  - destruct (zlen l <? n); cbn [concat].
    + apply app_nil_r.
    + rewrite IH. apply ztake_zdrop.
Qed.

Corollary pieces_config_independent : forall f1 n1 f2 n2 l,
  concat (pieces f1 n1 l) = concat (pieces f2 n2 l).
Proof. intros. rewrite !pieces_concat. reflexivity. Qed.

Lemma zlen_zdrop_ge {A} n (l : list A) : 0 <= n <= zlen l -> zlen (zdrop n l) = zlen l - n.
Proof. intros H. rewrite zlen_zdrop; lia. Qed.

Lemma pieces_sizes : forall fuel n l, 1 <= n -> (length l <= fuel)%nat ->
  Forall (fun p => zlen p <= n) (pieces fuel n l) /\
  exists full last, pieces fuel n l = full ++ [last] /\ Forall (fun p => zlen p = n) full /\ zlen last < n.
Proof.
  induction fuel as [|f IH]; intros n l Hn Hf; cbn [pieces].
  - destruct l; [|cbn in Hf; lia]. split; [repeat constructor; cbn; lia|]. exists [], []. repeat split; [constructor|cbn; lia].
  - destruct (Z.ltb_spec (zlen l) n) as [E|E].
    + split; [repeat constructor; lia|]. exists [], l. repeat split; [constructor|exact E].
    + assert (Ht : zlen (ztake n l) = n) by (rewrite zlen_ztake; lia).
      destruct (IH n (zdrop n l) Hn) as (A & full & last & P & F & L).
      { pose proof (zlen_zdrop n l). unfold zlen in *. lia. }
      split; [constructor; [lia|exact A]|]. exists (ztake n l :: full), last. rewrite P.
      repeat split; [constructor; assumption|exact L].
Qed.

Lemma sumlen_concat : forall ps, sumlen ps = zlen (concat ps).
Proof.
  induction ps as [|p ps IH]; cbn [sumlen fold_right concat].
  - reflexivity.
  - rewrite zlen_app. unfold sumlen in IH. rewrite IH. reflexivity.
Qed.

Lemma sumlen_app a b : sumlen (a ++ b) = sumlen a + sumlen b.
Proof. rewrite !sumlen_concat, concat_app, zlen_app. reflexivity. Qed.

Lemma sumlen_pieces : forall fuel n l, sumlen (pieces fuel n l) = zlen l.
Proof. intros. rewrite sumlen_concat, pieces_concat. reflexivity. Qed.

Lemma upd3 s s' a va b vb c vc : s' = upd (upd (upd s a va) b vb) c vc -> a <> b -> a <> c -> b <> c ->
  s' a = va /\ s' b = vb /\ s' c = vc /\ forall g, g <> a -> g <> b -> g <> c -> s' g = s g.
Proof.
  intros -> Hab Hac Hbc. split; [rewrite !upd_neq by auto; apply upd_eq|]. split; [rewrite upd_neq by auto; apply upd_eq|].
  split; [apply upd_eq|]. intros g Ha Hb Hc. rewrite !upd_neq by assumption. reflexivity.
Qed.

Section WriteShape.
Variable cs : classes.
Variable cap : Z.
Variables C_stats C_lc : Z.
Variables F_method F_usize F_cfile : Z.
Variables S_statsize S_fsize S_usize S_count S_rpo : Z.
Variable deflate : Z -> list Z -> list Z.
Hypothesis Hnd : NoDup [S_fsize; S_usize; S_count; S_rpo].

Let ws := write_session cs cap C_stats C_lc F_method F_usize F_cfile S_statsize S_fsize S_usize S_count S_rpo deflate.
Let lce := lc_encode cs cap C_lc F_method F_usize F_cfile deflate.

Lemma encode_all_spec : forall level ps conts,
  encode_all cs cap C_lc F_method F_usize F_cfile deflate level ps = Ok conts ->
  Forall2 (fun p c => lce level p = Ok c) ps conts.
Proof.
  induction ps as [|p ps IH]; intros conts H; cbn [encode_all] in H.
  - inversion H. constructor.
  - destruct (lc_encode cs cap C_lc F_method F_usize F_cfile deflate level p) as [b|] eqn:E; [|discriminate]. cbn [bind] in H.
    destruct (encode_all cs cap C_lc F_method F_usize F_cfile deflate level ps) as [rest|] eqn:R; [|discriminate]. cbn [bind] in H.
    inversion H; subst. constructor; [exact E|apply IH; reflexivity].
Qed.

Lemma ids_distinct :
  S_fsize <> S_usize /\ S_fsize <> S_count /\ S_usize <> S_count /\ S_rpo <> S_fsize /\ S_rpo <> S_usize /\ S_rpo <> S_count.
Proof.
  inversion Hnd as [|a l N1 D1]; subst. inversion D1 as [|a l N2 D2]; subst. inversion D2 as [|a l N3 _]; subst.
  cbn [In] in *. intuition congruence.
Qed.

(* A finished file is the encoded statistics followed by nothing but containers; the containers are
   the encodings of the pieces the stream is cut into (plus one empty restore-point container when
   enabled); the pieces concatenate to the objects' encodings in the order written, whatever the
   container size and compression level; the statistics written hold the file size, uncompressed
   size and object count recomputed from exactly those pieces, the restore-point offset designates
   the trailing container, and every other caller-supplied member is passed through unchanged. *)
Theorem write_session_shape : forall cfg hdr objs f, ws cfg hdr objs = Ok f ->
  let U := concat (map fst objs) in
  exists ps conts hdr' hbytes h0 h00 hbytes0,
    f = hbytes ++ concat conts /\
    enc cs cap C_stats hdr' = Ok (h0, hbytes) /\ enc cs cap C_stats hdr = Ok (h00, hbytes0) /\
    Forall2 (fun p c => lce (w_level cfg) p = Ok c) (if w_restore cfg then ps ++ [[]] else ps) conts /\
    ps = pieces (length U) (w_cs cfg) U /\ concat ps = U /\
    hdr' S_count = VInt (Z.of_nat (length (filter snd objs)) mod 2 ^ 32) /\
    hdr' S_usize = VInt ((geti hdr S_statsize + zlen U + 32 * zlen (if w_restore cfg then ps ++ [[]] else ps)) mod 2 ^ 64) /\
    hdr' S_fsize = VInt (zlen hbytes0 + zlen (concat conts)) /\
    (w_restore cfg = true -> hdr' S_rpo = VInt (zlen hbytes0 + zlen (concat (firstn (length ps) conts)))) /\
    (w_restore cfg = false -> hdr' S_rpo = hdr S_rpo) /\
    (forall g, g <> S_fsize -> g <> S_usize -> g <> S_count -> g <> S_rpo -> hdr' g = hdr g).
Proof.
  intros cfg hdr objs f H U. unfold ws, write_session in H. fold U in H.
  destruct ids_distinct as (D1 & D2 & D3 & D4 & D5 & D6).
  set (ps := pieces (length U) (w_cs cfg) U) in *.
  set (ps' := if w_restore cfg then ps ++ [[]] else ps) in *.
  destruct (encode_all cs cap C_lc F_method F_usize F_cfile deflate (w_level cfg) ps') as [conts|] eqn:E; [|discriminate]. cbn [bind] in H.
  destruct (enc cs cap C_stats hdr) as [[h00 hb0]|] eqn:H0; [|discriminate]. cbn [bind snd] in H.
  match type of H with context [enc cs cap C_stats ?h2] => set (hdr2 := h2) in * end.
  destruct (enc cs cap C_stats hdr2) as [[hs hb]|] eqn:H2; [|discriminate]. cbn [bind snd] in H. inversion H; subst f; clear H.
  destruct (upd3 _ hdr2 _ _ _ _ _ _ eq_refl D1 D2 D3) as (Ef & Eu & Ec & Eo).
  exists ps, conts, hdr2, hb, hs, h00, hb0.
  split; [reflexivity|]. split; [exact H2|]. split; [reflexivity|].
  split; [apply encode_all_spec in E; exact E|]. split; [reflexivity|]. split; [apply pieces_concat|].
  split; [exact Ec|].
  split.
  { rewrite Eu. f_equal. f_equal. f_equal.
    subst ps'. destruct (w_restore cfg).
    - rewrite sumlen_app. unfold ps. rewrite sumlen_pieces. cbn. lia.
    - unfold ps. rewrite sumlen_pieces. reflexivity. }
  split; [exact Ef|].
  (* the restore-point offset is set before the three, and only when restore points are enabled *)
  split; [intros R; rewrite Eo, R by auto; apply upd_eq|].
  split; [intros R; rewrite Eo, R by auto; reflexivity|].
  intros g G1 G2 G3 G4. rewrite Eo by assumption. destruct (w_restore cfg); [apply upd_neq; exact G4|reflexivity].
Qed.
End WriteShape.

Lemma lookup_forallb (P : Z -> bool) (factory : list (Z * Z)) : forallb (fun p => (snd p =? 0) || P (snd p)) factory = true ->
  forall code, lookup_factory factory code <> 0 -> P (lookup_factory factory code) = true.
Proof.
  intros Hall code Hc. unfold lookup_factory in *.
  destruct (find (fun p => fst p =? code) factory) as [p|] eqn:F; [|contradiction].
  apply find_some in F. destruct F as [Hin _].
  pose proof (proj1 (forallb_forall _ _) Hall p Hin) as H. cbn beta in H.
  apply orb_prop in H. destruct H as [H|H]; [apply Z.eqb_eq in H; contradiction|exact H].
Qed.

Section ReadSession.
Variables (cs : classes) (sp : scan_params) (cap : Z) (factory : list (Z * Z)).
Variables C_stats C_lc C_ohb F_osz F_otype F_method F_usize F_cfile S_statsize : Z.
Variable inflate : list Z -> Z -> option (list Z).

(* r_cend does not depend on the parser stage: lets TermFacts.session_ends treat the two stages one after the other *)
Lemma session_cend (i0 : istream) (n : nat) :
  r_cend (read_session_on cs sp cap factory C_stats C_lc C_ohb F_osz F_otype F_method F_usize F_cfile S_statsize inflate i0 n) =
  match dec cs sp cap C_stats (fresh cs C_stats) i0 with
  | Err _ => EndException
  | Ok (st, i1) => snd (cont_loop cs sp cap C_lc C_ohb F_otype F_method F_usize F_cfile inflate (S (S (n / 16))) i1 [] (geti st S_statsize))
  end.
Proof.
  unfold read_session_on. destruct (dec cs sp cap C_stats (fresh cs C_stats) i0) as [[st i1]|e]; [|reflexivity].
  destruct (cont_loop _ _ _ _ _ _ _ _ _ _ _ _ _ _) as [[conts usize] cend].
  destruct (obj_loop _ _ _ _ _ _ _ _ _ _ _) as [[objs count] oend]. reflexivity.
Qed.
End ReadSession.
