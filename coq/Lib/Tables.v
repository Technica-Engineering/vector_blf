(* Tables.v — what the finite checks are written with: association lists over Z keys, equality of Z lists as a boolean, and the lemmas that lift a check over the keys to all keys. *)
From VB Require Import Base.
Local Open Scope Z_scope.

Lemma existsb_eqb_In (c : Z) l : existsb (Z.eqb c) l = true <-> In c l.
Proof.
  rewrite existsb_exists. split; [intros (x & Hx & E); apply Z.eqb_eq in E; subst x; exact Hx|].
  intros H. exists c. split; [exact H|apply Z.eqb_refl].
Qed.

Lemma filter_map_length {A B} (f : A -> B) (q : B -> bool) l :
  length (filter q (map f l)) = length (filter (fun x => q (f x)) l).
Proof. induction l as [|x l IH]; cbn; [reflexivity|]. destruct (q (f x)); cbn; rewrite IH; reflexivity. Qed.

Fixpoint list_eqb (a b : list Z) : bool :=
  match a, b with
  | [], [] => true
  | x :: a', y :: b' => (x =? y) && list_eqb a' b'
  | _, _ => false
  end.
Lemma list_eqb_eq a : forall b, list_eqb a b = true -> a = b.
Proof.
  induction a as [|x a IH]; intros [|y b] H; cbn in H; try discriminate; [reflexivity|].
  apply andb_prop in H. destruct H as [H1 H2]. apply Z.eqb_eq in H1. subst. f_equal. apply IH. exact H2.
Qed.

Fixpoint lookup {A} (k : Z) (l : list (Z * A)) : option A :=
  match l with [] => None | (k', v) :: r => if k' =? k then Some v else lookup k r end.

Lemma lookup_not_in {A} k (l : list (Z * A)) : ~ In k (map fst l) -> lookup k l = None.
Proof.
  induction l as [|[k' v] r IH]; cbn [lookup map fst In]; intros H; [reflexivity|].
  destruct (Z.eqb_spec k' k) as [->|Hne]; [exfalso; apply H; left; reflexivity|].
  apply IH. intros Hin. apply H. right. exact Hin.
Qed.

Lemma forall_keys (P : Z -> bool) (keys : list Z) :
  forallb P keys = true -> (forall k, ~ In k keys -> P k = true) -> forall k, P k = true.
Proof.
  intros Hall Hout k. destruct (in_dec Z.eq_dec k keys) as [Hin|Hnin].
  - rewrite forallb_forall in Hall. apply Hall. exact Hin.
  - apply Hout. exact Hnin.
Qed.

Definition opt_z_eqb (a b : option Z) : bool :=
  match a, b with None, None => true | Some x, Some y => x =? y | _, _ => false end.
Lemma opt_z_eqb_eq a b : opt_z_eqb a b = true -> a = b.
Proof. destruct a, b; cbn; intros H; try discriminate; [apply Z.eqb_eq in H; subst|]; reflexivity. Qed.
