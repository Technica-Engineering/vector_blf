(* WPipe.v — the write session as three threads over the object queue and the in-memory stream:
     A  (application): write(obj) ... close() = setFileSize; join worker 1; join worker 2
     W1 (uncompressedFileWriteThread): read an object from the queue, encode it chunk by chunk into the stream
        (each os.write waits for tellp - tellg < bufferSize), delete it; at end of queue declare end of stream
     W2 (compressedFileWriteThread): read exactly `cs` bytes (blocking) or the short rest at end of stream, emit a container
   one step = one critical section.  The blocking conditions are the wait predicates of Lib/OQModel.v and
   Lib/UFModel.v; the thread programs are tied to File.cpp by the statement skeletons (Inst/SkelEq.v).
   Theorems: no reachable state is stuck (C06), every run terminates (measure), the containers emitted are the
   same for every interleaving and equal FileModel.pieces (C07, C14), the data held is bounded (C12), every
   object is owned by exactly one party and released exactly once (C11, C13). *)
From Coq Require Import List ZArith Bool Lia.
From VB Require Import Base BaseFacts FileModel.
Import ListNotations.
Local Open Scope Z_scope.

Definition chunk := list Z.
Record obj := { o_id : Z; o_chunks : list chunk }.     (* an object: identity + the byte chunks its write() emits *)

Inductive apc := AWrite (l : list obj) | ASetEof | AJoin1 | AJoin2 | ADone.
Inductive w1pc := W1Read | W1Chunk (o : obj) (ks : list chunk) | W1Delete (o : obj) | W1SetEof | W1Done.
Inductive w2pc := W2Read | W2Done.

Record ws := {
  a_pc : apc;
  q : list obj; q_eof : bool;
  w1 : w1pc;
  ubuf : list Z; u_eof : bool;        (* bytes in the stream not yet read by worker 2; end declared *)
  w2 : w2pc;
  out : list (list Z);                (* containers emitted so far *)
  deleted : list Z                    (* ids of objects deleted by the library, in order *)
}.

Section Write.
Variables cap buf cs : Z.

Definition init (l : list obj) : ws :=
  {| a_pc := AWrite l; q := []; q_eof := false; w1 := W1Read; ubuf := []; u_eof := false; w2 := W2Read; out := []; deleted := [] |}.

Definition set_a (s : ws) p := {| a_pc := p; q := q s; q_eof := q_eof s; w1 := w1 s; ubuf := ubuf s; u_eof := u_eof s; w2 := w2 s; out := out s; deleted := deleted s |}.

Definition step_A (s : ws) : option ws :=
  match a_pc s with
  | AWrite (o :: l) =>
      (* ObjectQueue::write: waits while the queue is at its capacity *)
      if zlen (q s) <? cap
      then Some {| a_pc := AWrite l; q := q s ++ [o]; q_eof := q_eof s; w1 := w1 s; ubuf := ubuf s; u_eof := u_eof s; w2 := w2 s; out := out s; deleted := deleted s |}
      else None
  | AWrite [] => Some (set_a s ASetEof)
  | ASetEof => Some {| a_pc := AJoin1; q := q s; q_eof := true; w1 := w1 s; ubuf := ubuf s; u_eof := u_eof s; w2 := w2 s; out := out s; deleted := deleted s |}
  | AJoin1 => match w1 s with W1Done => Some (set_a s AJoin2) | _ => None end
  | AJoin2 => match w2 s with W2Done => Some (set_a s ADone) | _ => None end
  | ADone => None
  end.

Definition set_w1 (s : ws) p := {| a_pc := a_pc s; q := q s; q_eof := q_eof s; w1 := p; ubuf := ubuf s; u_eof := u_eof s; w2 := w2 s; out := out s; deleted := deleted s |}.

Definition step_W1 (s : ws) : option ws :=
  match w1 s with
  | W1Read =>
      (* ObjectQueue::read: waits while the queue is empty and its end is not declared *)
      match q s with
      | o :: r => Some {| a_pc := a_pc s; q := r; q_eof := q_eof s; w1 := W1Chunk o (o_chunks o); ubuf := ubuf s; u_eof := u_eof s; w2 := w2 s; out := out s; deleted := deleted s |}
      | [] => if q_eof s then Some (set_w1 s W1SetEof) else None
      end
  | W1Chunk o (k :: ks) =>
      (* UncompressedFile::write(s, n): waits while tellp - tellg >= bufferSize, then writes all n bytes *)
      if zlen (ubuf s) <? buf
      then Some {| a_pc := a_pc s; q := q s; q_eof := q_eof s; w1 := W1Chunk o ks; ubuf := ubuf s ++ k; u_eof := u_eof s; w2 := w2 s; out := out s; deleted := deleted s |}
      else None
  | W1Chunk o [] => Some (set_w1 s (W1Delete o))
  | W1Delete o => Some {| a_pc := a_pc s; q := q s; q_eof := q_eof s; w1 := W1Read; ubuf := ubuf s; u_eof := u_eof s; w2 := w2 s; out := out s; deleted := deleted s ++ [o_id o] |}
  | W1SetEof => Some {| a_pc := a_pc s; q := q s; q_eof := q_eof s; w1 := W1Done; ubuf := ubuf s; u_eof := true; w2 := w2 s; out := out s; deleted := deleted s |}
  | W1Done => None
  end.

Definition step_W2 (s : ws) : option ws :=
  match w2 s with
  | W2Read =>
      (* UncompressedFile::read(s, cs): waits until cs bytes are there or the request crosses the declared end *)
      if cs <=? zlen (ubuf s)
      then Some {| a_pc := a_pc s; q := q s; q_eof := q_eof s; w1 := w1 s; ubuf := zdrop cs (ubuf s); u_eof := u_eof s; w2 := W2Read;
                   out := out s ++ [ztake cs (ubuf s)]; deleted := deleted s |}
      else if u_eof s
      then Some {| a_pc := a_pc s; q := q s; q_eof := q_eof s; w1 := w1 s; ubuf := []; u_eof := u_eof s; w2 := W2Done;
                   out := out s ++ [ubuf s]; deleted := deleted s |}
      else None
  | W2Done => None
  end.

Inductive thread := TA | TW1 | TW2.
Definition step (t : thread) (s : ws) : option ws :=
  match t with TA => step_A s | TW1 => step_W1 s | TW2 => step_W2 s end.

Inductive reach (l : list obj) : ws -> Prop :=
| reach_init : reach l (init l)
| reach_step : forall s t s', reach l s -> step t s = Some s' -> reach l s'.

Definition finished (s : ws) : Prop := a_pc s = ADone /\ w1 s = W1Done /\ w2 s = W2Done.

Definition a_past_eof (p : apc) : bool := match p with AJoin1 | AJoin2 | ADone => true | _ => false end.

(* in order: the end of the queue is declared exactly when the application is past setFileSize; the end of the stream
   exactly when worker 1 is done; worker 1 leaves its loop only at an empty queue whose end is declared; worker 2 is done
   only at the declared end of an emptied stream; the application is past its first join only when worker 1 is done,
   and done only when worker 2 is *)
Definition Inv (s : ws) : Prop :=
  q_eof s = a_past_eof (a_pc s) /\
  (u_eof s = true <-> w1 s = W1Done) /\
  (w1 s = W1SetEof \/ w1 s = W1Done -> q s = [] /\ q_eof s = true) /\
  (w2 s = W2Done -> u_eof s = true /\ ubuf s = []) /\
  (a_pc s = AJoin2 \/ a_pc s = ADone -> w1 s = W1Done) /\
  (a_pc s = ADone -> w2 s = W2Done).

(* One constructor per branch of step_A, step_W1, step_W2, the wait predicates as hypotheses.
   The fields of ws are a_pc, q, q_eof, w1, ubuf, u_eof, w2, out, deleted. *)
Inductive Step : thread -> ws -> ws -> Prop :=
| A_put o l qs e w u f v c d : zlen qs < cap ->
    Step TA (Build_ws (AWrite (o :: l)) qs e w u f v c d) (Build_ws (AWrite l) (qs ++ [o]) e w u f v c d)
| A_written qs e w u f v c d :
    Step TA (Build_ws (AWrite []) qs e w u f v c d) (Build_ws ASetEof qs e w u f v c d)
| A_eof qs e w u f v c d :
    Step TA (Build_ws ASetEof qs e w u f v c d) (Build_ws AJoin1 qs true w u f v c d)
| A_join1 qs e u f v c d :
    Step TA (Build_ws AJoin1 qs e W1Done u f v c d) (Build_ws AJoin2 qs e W1Done u f v c d)
| A_join2 qs e w u f c d :
    Step TA (Build_ws AJoin2 qs e w u f W2Done c d) (Build_ws ADone qs e w u f W2Done c d)
| W1_get a o qs e u f v c d :
    Step TW1 (Build_ws a (o :: qs) e W1Read u f v c d) (Build_ws a qs e (W1Chunk o (o_chunks o)) u f v c d)
| W1_drained a u f v c d :
    Step TW1 (Build_ws a [] true W1Read u f v c d) (Build_ws a [] true W1SetEof u f v c d)
| W1_put a qs e o k ks u f v c d : zlen u < buf ->
    Step TW1 (Build_ws a qs e (W1Chunk o (k :: ks)) u f v c d) (Build_ws a qs e (W1Chunk o ks) (u ++ k) f v c d)
| W1_encoded a qs e o u f v c d :
    Step TW1 (Build_ws a qs e (W1Chunk o []) u f v c d) (Build_ws a qs e (W1Delete o) u f v c d)
| W1_delete a qs e o u f v c d :
    Step TW1 (Build_ws a qs e (W1Delete o) u f v c d) (Build_ws a qs e W1Read u f v c (d ++ [o_id o]))
| W1_eof a qs e u f v c d :
    Step TW1 (Build_ws a qs e W1SetEof u f v c d) (Build_ws a qs e W1Done u true v c d)
| W2_full a qs e w u f c d : cs <= zlen u ->
    Step TW2 (Build_ws a qs e w u f W2Read c d) (Build_ws a qs e w (zdrop cs u) f W2Read (c ++ [ztake cs u]) d)
| W2_last a qs e w u c d : zlen u < cs ->
    Step TW2 (Build_ws a qs e w u true W2Read c d) (Build_ws a qs e w [] true W2Done (c ++ [u]) d).

(* closes a branch of step_A/W1/W2 that has no further test: it returns nothing, or the target of a constructor *)
Ltac fires := first [discriminate | intros [= <-]; constructor].

Lemma step_Step t s s' : step t s = Some s' <-> Step t s s'.
Proof.
  split.
  - destruct s as [a qs e w u f v c d], t; unfold step, step_A, step_W1, step_W2, set_a, set_w1; cbn.
    + destruct a as [[|o l]| | | |]; try fires.
      * destruct (Z.ltb_spec (zlen qs) cap); fires. assumption.
      * destruct w; fires.
      * destruct v; fires.
    + destruct w as [|o [|k ks]|o| |]; try fires.
      * destruct qs; [destruct e|]; fires.
      * destruct (Z.ltb_spec (zlen u) buf); fires. assumption.
    + destruct v; [|discriminate].
      destruct (Z.leb_spec cs (zlen u)); [|destruct f]; fires; assumption.
  - destruct 1; try reflexivity; unfold step, step_A, step_W1, step_W2; cbn;
      [destruct (Z.ltb_spec (zlen qs) cap)|destruct (Z.ltb_spec (zlen u) buf)|destruct (Z.leb_spec cs (zlen u))..];
      (reflexivity || lia).
Qed.

Lemma inv_init l : Inv (init l).
Proof. unfold Inv; cbn. firstorder congruence. Qed.

Lemma inv_step t s s' : Step t s s' -> Inv s -> Inv s'.
Proof.
  (* each conjunct (the equivalence as two) from those it rests on, by cases on the transition *)
  intros H (I1 & I2 & I3 & I4 & I5 & I6). unfold Inv.
  repeat apply conj; [clear - H I1|clear - H I2|clear - H I2|clear - H I1 I3|clear - H I2 I4|clear - H I5|clear - H I6];
    destruct H; cbn in *; try assumption; firstorder congruence.
Qed.

Lemma reach_Step_ind l (P : ws -> Prop) :
  P (init l) -> (forall t s s', reach l s -> P s -> Step t s s' -> P s') -> forall s, reach l s -> P s.
Proof. intros P0 PS. induction 1; [exact P0|eapply PS; [| |apply step_Step]; eassumption]. Qed.

Lemma inv_reach l s : reach l s -> Inv s.
Proof. induction 1 using reach_Step_ind; [apply inv_init|eapply inv_step; eassumption]. Qed.

Lemma inv_w1_done s : Inv s -> w1 s = W1Done -> q s = [].
Proof. intros (_ & _ & I & _) D. apply I. auto. Qed.

Lemma inv_w2_done s : Inv s -> w2 s = W2Done -> ubuf s = [].
Proof. intros (_ & _ & _ & I & _) D. apply I, D. Qed.

Lemma Step_moves t s s' : Step t s s' -> exists t s', step t s = Some s'.
Proof. intros H. exists t, s'. apply step_Step, H. Qed.

Hypothesis Hcap : 1 <= cap.
Hypothesis Hcs : cs <= buf.            (* File keeps the buffer at one container (constructor and setDefaultLogContainerSize) *)

(* C06 (write).  Stated for every state that satisfies Inv, hence for every reachable one (inv_reach) *)
Theorem stuck_free : forall s, Inv s -> ~ finished s -> exists t s', step t s = Some s'.
Proof.
  (* from the consuming end upstream: worker 2 waits for worker 1, which waits for the application *)
  intros [a qs e w u f v c d]. unfold Inv, finished. cbn. intros (I1 & I2 & I3 & I4 & I5 & I6) NF.
  destruct v.
  - destruct (Z.le_gt_cases cs (zlen u)); [eapply Step_moves, W2_full; assumption|].
    destruct f; [eapply Step_moves, W2_last; assumption|].
    (* it waits: so worker 1 is not done, and the stream holds fewer than cs <= buf bytes *)
    destruct w as [|o [|k ks]|o| |]; [|eapply Step_moves; constructor; lia..|destruct I2 as [_ I2]; discriminate (I2 eq_refl)].
    destruct qs as [|o qs]; [|eapply Step_moves, W1_get].
    destruct e; [eapply Step_moves, W1_drained|].
    (* the queue is empty and its end not declared: the application is still writing *)
    destruct a as [[|o l]| | | |]; try discriminate I1; eapply Step_moves; constructor. cbn. lia.
  - (* worker 2 done: the end was declared, so worker 1 is done and the application is joining *)
    destruct (I4 eq_refl) as [F _]. apply I2 in F. destruct (I3 (or_intror F)) as [_ ->].
    destruct a; try discriminate I1.
    + rewrite F. eapply Step_moves, A_join1.
    + eapply Step_moves, A_join2.
    + exfalso. apply NF. auto.
Qed.

End Write.

Definition obj_bytes (o : obj) : list Z := concat (o_chunks o).
Definition objs_bytes (l : list obj) : list Z := concat (map obj_bytes l).
Definition a_list (p : apc) : list obj := match p with AWrite l => l | _ => [] end.
Definition w1_bytes (p : w1pc) : list Z := match p with W1Chunk _ ks => concat ks | _ => [] end.
Definition w1_ids (p : w1pc) : list Z := match p with W1Chunk o _ | W1Delete o => [o_id o] | _ => [] end.

Lemma objs_bytes_app a b : objs_bytes (a ++ b) = objs_bytes a ++ objs_bytes b.
Proof. unfold objs_bytes. rewrite map_app, concat_app. reflexivity. Qed.
Lemma objs_bytes_cons o l : objs_bytes (o :: l) = obj_bytes o ++ objs_bytes l.
Proof. reflexivity. Qed.

Arguments objs_bytes : simpl never.
Arguments obj_bytes : simpl never.

Section WriteData.
Variables cap buf cs : Z.
Notation step := (step cap buf cs).
Notation Step := (Step cap buf cs).
Notation reach := (reach cap buf cs).

(* every byte and every object is in exactly one place: no step changes these two lists *)
Definition held_bytes (s : ws) : list Z :=
  concat (out s) ++ ubuf s ++ w1_bytes (w1 s) ++ objs_bytes (q s) ++ objs_bytes (a_list (a_pc s)).
Definition held_ids (s : ws) : list Z :=
  deleted s ++ w1_ids (w1 s) ++ map o_id (q s) ++ map o_id (a_list (a_pc s)).

Lemma step_conserves t s s' : Step t s s' -> held_bytes s' = held_bytes s /\ held_ids s' = held_ids s.
Proof.
  destruct 1; unfold held_bytes, held_ids; cbn;
    rewrite ?objs_bytes_app, ?objs_bytes_cons, ?map_app, ?concat_snoc, <- ?app_assoc; auto.
  rewrite (app_assoc (ztake cs u)), ztake_zdrop. auto.
Qed.

Lemma conserved l s : reach l s -> held_bytes s = objs_bytes l /\ held_ids s = map o_id l.
Proof.
  revert s. apply reach_Step_ind; [split; reflexivity|]. intros t s s' _ IH H.
  apply step_conserves in H. destruct H as [-> ->]. exact IH.
Qed.

(* C12 (write): what the library holds is bounded, independent of the number of objects.  os.write is admitted with at
   most buf - 1 bytes in the stream and adds one chunk, ObjectQueue::write with fewer than cap objects and adds one; the
   max with 0 keeps the bounds true of the empty stream and queue when buf or cap is not positive *)
Definition chunks_le (M : Z) (o : obj) : Prop := Forall (fun k => zlen k <= M) (o_chunks o).

Definition Bounded (M : Z) (s : ws) : Prop :=
  zlen (ubuf s) <= Z.max 0 (buf - 1) + M /\ zlen (q s) <= Z.max cap 0 /\
  Forall (chunks_le M) (q s) /\ Forall (chunks_le M) (a_list (a_pc s)) /\
  match w1 s with W1Chunk _ ks => Forall (fun k => zlen k <= M) ks | _ => True end.

Theorem write_bounded : forall M l s, 0 <= M -> Forall (chunks_le M) l -> reach l s -> Bounded M s.
Proof.
  intros M l s HM Hl. revert s. apply reach_Step_ind.
  - unfold Bounded. cbn. repeat split; auto; lia.
  - intros t s s' _ (B1 & B2 & B3 & B4 & B5) H.
    destruct H; unfold Bounded; cbn [a_pc q w1 ubuf a_list] in *; try (repeat apply conj; (assumption || exact I)).
    + (* A_put *) apply Forall_cons_iff in B4 as [Bo B4]. rewrite zlen_app, Forall_app. repeat split; auto; cbn; lia.
    + (* W1_get *) apply Forall_cons_iff in B3 as [Bo B3]. rewrite zlen_cons in B2. repeat split; auto; lia.
    + (* W1_put *) apply Forall_cons_iff in B5 as [Bk B5]. rewrite zlen_app. repeat split; auto; lia.
    + (* W2_full *) rewrite zlen_zdrop by assumption. repeat split; auto; lia.
    + (* W2_last *) rewrite zlen_nil. repeat split; auto; lia.
Qed.

Hypothesis Hcs1 : 1 <= cs.

Definition Shape (s : ws) : Prop :=
  match w2 s with
  | W2Read => Forall (fun p => zlen p = cs) (out s)
  | W2Done => exists full last, out s = full ++ [last] /\ Forall (fun p => zlen p = cs) full /\ zlen last < cs
  end.

Lemma shape_reach l s : reach l s -> Shape s.
Proof.
  revert s. apply reach_Step_ind; [constructor|]. intros t s s' _ IH H.
  destruct H; try exact IH; unfold Shape in *; cbn in *.
  - apply Forall_app. split; [exact IH|]. repeat constructor. rewrite zlen_ztake; lia.
  - eauto.
Qed.

Lemma pieces_unique : forall full last fuel,
  Forall (fun p => zlen p = cs) full -> zlen last < cs -> (length (concat full ++ last) <= fuel)%nat ->
  pieces fuel cs (concat full ++ last) = full ++ [last].
Proof.
  induction full as [|p full IH]; intros last fuel F L Hf; cbn [concat app] in *.
  - destruct fuel; cbn [pieces]; [reflexivity|]. replace (zlen last <? cs) with true by lia. reflexivity.
  - apply Forall_cons_iff in F. destruct F as [Hp F']. rewrite <- app_assoc in *.
    (* a full block is at least one byte: there is fuel for it, and what is left is enough for the rest *)
    rewrite app_length in Hf. assert (1 <= length p)%nat by (unfold zlen in Hp; lia). destruct fuel as [|fuel]; [lia|]. cbn [pieces].
    replace (zlen (p ++ concat full ++ last) <? cs) with false by (rewrite zlen_app; pose proof (zlen_nonneg (concat full ++ last)); lia).
    rewrite (ztake_app_len cs), (zdrop_app_len cs) by exact Hp. rewrite IH; auto. lia.
Qed.

(* C07 / C14 (write) *)
Theorem write_determinate : forall l s, reach l s -> finished s ->
  out s = pieces (length (objs_bytes l)) cs (objs_bytes l) /\
  deleted s = map o_id l /\ q s = [] /\ ubuf s = [].
Proof.
  intros l s R (FA & F1 & F2).
  destruct (conserved l s R) as [C1 C2]. pose proof (shape_reach l s R) as Sh.
  pose proof (inv_reach cap buf cs l s R) as I.
  pose proof (inv_w2_done _ I F2) as Ub. pose proof (inv_w1_done _ I F1) as Qe.
  unfold held_bytes, held_ids, Shape in *. rewrite FA, F1, F2, Qe, Ub in *. cbn in C1, C2. rewrite !app_nil_r in C1, C2.
  destruct Sh as (full & last & E & Ff & Fl).
  repeat split; auto.
  rewrite <- C1, E, concat_snoc. symmetry. apply pieces_unique; [exact Ff|exact Fl|apply le_n].
Qed.

(* termination: an object weighs one more in the application's list than in the queue, and there one more than the steps
   worker 1 takes on it (one per chunk, the end of its encoding, its delete); the byte counts serve W2_full alone, which
   changes no program counter *)
Definition wq (o : obj) : nat := length (o_chunks o) + 3.
Definition mA (p : apc) : nat :=
  match p with AWrite l => fold_right (fun o a => S (wq o) + a)%nat 4%nat l | ASetEof => 3 | AJoin1 => 2 | AJoin2 => 1 | ADone => 0 end%nat.
Definition mW1 (p : w1pc) : nat :=
  match p with W1Read => 2 | W1Chunk _ ks => length ks + 4 | W1Delete _ => 3 | W1SetEof => 1 | W1Done => 0 end%nat.
Definition mW2 (p : w2pc) : nat := match p with W2Read => 1 | W2Done => 0 end%nat.
Definition mu (s : ws) : nat :=
  (mA (a_pc s) + fold_right (fun o a => wq o + a) 0 (q s) + mW1 (w1 s) + mW2 (w2 s) +
   length (ubuf s) + length (w1_bytes (w1 s)) + length (objs_bytes (q s)) + length (objs_bytes (a_list (a_pc s))))%nat.

Lemma fold_wq_app a b : (fold_right (fun o x => wq o + x) 0 (a ++ b) = fold_right (fun o x => wq o + x) 0 a + fold_right (fun o x => wq o + x) 0 b)%nat.
Proof. induction a; cbn; [reflexivity|lia]. Qed.

Theorem step_decreases : forall s t s', step t s = Some s' -> (mu s' < mu s)%nat.
Proof.
  (* after the lengths are spread over the parts, linear arithmetic.  Three transitions need more than app_length: A_put moves
     an object from the application's list to the queue (fold_wq_app, objs_bytes_app, objs_bytes_cons), W1_get turns the
     object's bytes into worker 1's (obj_bytes, wq), W2_full takes cs >= 1 bytes out of the stream (skipn_length) *)
  intros s t s' H. apply step_Step in H.
  destruct H; unfold mu, zdrop, zlen in *; cbn;
    rewrite ?fold_wq_app, ?objs_bytes_app, ?objs_bytes_cons, ?app_length, ?skipn_length;
    change (objs_bytes []) with (@nil Z); unfold obj_bytes, wq; cbn; lia.
Qed.

End WriteData.

(* non-vacuity: two objects, capacity 1, buffer = container = 3 bytes; one complete run *)
Definition ex_o1 := {| o_id := 1; o_chunks := [[1; 2]; [3; 4; 5]] |}.
Definition ex_o2 := {| o_id := 2; o_chunks := [[6]] |}.
Fixpoint run_any (fuel : nat) (s : ws) : ws :=
  match fuel with O => s | S f =>
    match step 1 3 3 TW2 s with Some s' => run_any f s' | None =>
    match step 1 3 3 TW1 s with Some s' => run_any f s' | None =>
    match step 1 3 3 TA s with Some s' => run_any f s' | None => s end end end end.
Example write_run_example :
  let s := run_any 100 (init [ex_o1; ex_o2]) in
  out s = [[1; 2; 3]; [4; 5; 6]; []] /\ deleted s = [1; 2] /\ a_pc s = ADone /\ w1 s = W1Done /\ w2 s = W2Done.
Proof. vm_compute. repeat split; reflexivity. Qed.
