(* ReadProg.v — what the signature search and a read program do to their input stream, stated once: a property of the
   stream that every stream operation of the program keeps holds at its end, and the program reports a search that does
   not end (Err ESpin) only if a search it ran does.  The theorems about particular stream invariants (TermFacts,
   StreamLevel, PrefixRT) are instances. *)
From VB Require Import Base IR Sem CallFacts.
Local Open Scope Z_scope.

Section Search.
Variable sp : scan_params.

(* where a round of the search that goes on leaves the stream: tmp is the window just read *)
Definition scan_next (tmp : Z) (i : istream) : istream :=
  let k := scan_rule (sp_rules sp) tmp in if k =? 0 then i else s_seek k i.

(* every round started in Q establishes E by its read and, when the search goes on, leaves the stream in Q again and
   related to the one it started from by D *)
Definition scan_round (Q E : istream -> Prop) (D : istream -> istream -> Prop) : Prop :=
  forall tmp i, Q i ->
    let i1 := snd (s_read 4 i) in E i1 /\ (scan_stop sp i1 = false -> Q (scan_next tmp i1) /\ D i (scan_next tmp i1)).

Variables Q E : istream -> Prop.
Variable D : istream -> istream -> Prop.
Hypothesis Hround : scan_round Q E D.

Lemma scan_inv : forall n tmp i r i', Q i -> scan_loop sp n tmp i = Ok (r, i') -> E i'.
Proof.
  induction n as [|n IH]; intros tmp i r i' Hq H; [discriminate|]. cbn [scan_loop] in H.
  pose proof (fun t => Hround t i Hq) as R. destruct (s_read 4 i) as [got i1]. cbn [snd] in R.
  destruct (_ =? sp_sig sp).
  - injection H as <- <-. apply (R 0).
  - destruct (scan_stop sp i1); [discriminate|].
    apply (IH (merge_scalar 4 tmp got) (scan_next (merge_scalar 4 tmp got) i1) r i'); [|exact H]. apply R. reflexivity.
Qed.

(* a measure that D lowers bounds the number of rounds *)
Lemma scan_ends (m : istream -> nat) : (forall i j, D i j -> (m j < m i)%nat) ->
  forall n tmp i, Q i -> (m i < n)%nat -> scan_loop sp n tmp i <> Err ESpin.
Proof.
  intros Hm. induction n as [|n IH]; intros tmp i Hq Hn; [lia|]. cbn [scan_loop].
  pose proof (fun t => Hround t i Hq) as R. destruct (s_read 4 i) as [got i1]. cbn [snd] in R.
  destruct (_ =? sp_sig sp); [discriminate|]. destruct (scan_stop sp i1); [discriminate|].
  destruct (proj2 (R (merge_scalar 4 tmp got)) eq_refl) as [Hq' Hd].
  apply (IH (merge_scalar 4 tmp got) (scan_next (merge_scalar 4 tmp got) i1) Hq'). apply Hm in Hd. lia.
Qed.

End Search.

Section ReadProg.
Variable cs : classes.
Variable call : target -> mid -> state -> res (Z * ity).
Variable sp : scan_params.
Variable cap : Z.

(* what a successful run of a program that begins with an assignment, or with the search, went through *)
Lemma assign_inv f e k s l i r : run_r cs call sp cap (PAssign f e k) s l i = Ok r ->
  exists s1, run_r cs call sp cap k s1 l i = Ok r.
Proof.
  cbn [run_r]. destruct (find_field cs f) as [x|]; [|discriminate]. destruct (f_kind x) as [t| |]; try discriminate.
  destruct (eval_as cs call t s l e) as [v|]; cbn [bind]; [eauto|discriminate].
Qed.

Lemma search_inv k s l i r : run_r cs call sp cap (PScan k) s l i = Ok r ->
  exists t i1, scan_loop sp (S (S (length (s_data i)))) 0 i = Ok (t, i1) /\
    run_r cs call sp cap k (upd s (sp_field sp) (VInt t)) l i1 = Ok r.
Proof.
  cbn [run_r]. destruct (scan_loop sp (S (S (length (s_data i)))) 0 i) as [[t i1]|]; cbn [bind fst snd]; [eauto|discriminate].
Qed.

(* every seek of the program is by an amount in A, whatever the state it is evaluated in *)
Variable A : Z -> Prop.
Fixpoint seeks_in (p : prog) : Prop :=
  match p with
  | PSeek e k => (forall s l off, eval_as cs call I64 s l e = Ok off -> A off) /\ seeks_in k
  | PIf _ a b => seeks_in a /\ seeks_in b
  | PRead _ k | PReadBytes _ _ k | PResize _ _ k | PAssign _ _ k | PDecl _ _ _ k | PSet _ _ k | PScan k => seeks_in k
  | _ => True
  end.

Variable Q : istream -> Prop.
Hypothesis Qread : forall n i, Q i -> Q (snd (s_read n i)).
Hypothesis Qseek : forall off i, A off -> Q i -> Q (s_seek off i).
Hypothesis Qscan : forall i r i', Q i -> scan_loop sp (S (S (length (s_data i)))) 0 i = Ok (r, i') -> Q i'.

(* what a run started in Q may end in *)
Definition traced (r : res (state * istream)) : Prop :=
  match r with
  | Ok (_, i') => Q i'
  | Err e => e = ESpin -> (forall tg m s, call tg m s <> Err ESpin) ->
             exists j, Q j /\ scan_loop sp (S (S (length (s_data j)))) 0 j = Err ESpin
  end.

Lemma traced_bind {T} (r : res T) k :
  ((forall tg m s, call tg m s <> Err ESpin) -> r <> Err ESpin) -> (forall a, r = Ok a -> traced (k a)) -> traced (bind r k).
Proof. destruct r as [a|e]; cbn [bind]; intros Hn Hk; [apply Hk; reflexivity|]. intros -> Hc. destruct (Hn Hc eq_refl). Qed.

Theorem run_r_traced : forall p s l i, seeks_in p -> Q i -> traced (run_r cs call sp cap p s l i).
Proof.
  induction p as [| e | | | f k IH | f k IH | f e k IH | f e k IH | f e k IH | e k IH | e k IH | f e k IH | x t e k IH | x e k IH | k IH | c a IHa b IHb];
    intros s l i Hs Hq; cbn [run_r]; cbn [seeks_in] in Hs; try (intros [=]).
  (* traced (Err e) opens with e = ESpin ->, so intros [=] closes, here and below, every case that fails with another error *)
  - exact Hq.
  - destruct (find_field cs f) as [x|]; [|intros [=]]. destruct (ksize (f_kind x)) as [w|]; [|intros [=]].
    specialize (Qread w i Hq). destruct (s_read w i) as [got i1].
    apply traced_bind; [intros _; apply read_into_not; reflexivity|intros v _; apply IH; assumption].
  - apply traced_bind; [apply eval_as_no_spin|intros n _]. destruct (s f) as [|b|]; try (intros [=]).
    specialize (Qread n i Hq). destruct (s_read n i) as [got i1].
    destruct (zlen b <? zlen got); [intros [=]|apply IH; assumption].
  - apply traced_bind; [apply eval_as_no_spin|intros n _].
    destruct (find_field cs f) as [x|]; [|intros [=]]. destruct (s f) as [|b|]; try (intros [=]).
    destruct (cap <? n * kelt (f_kind x)); [intros [=]|apply IH; assumption].
  - destruct Hs as [Ho Hs]. apply traced_bind; [apply eval_as_no_spin|intros off Eo].
    apply IH; [exact Hs|]. apply Qseek; [exact (Ho s l off Eo)|exact Hq].
  - destruct (find_field cs f) as [x|]; [|intros [=]]. destruct (f_kind x) as [t| |]; try (intros [=]).
    apply traced_bind; [apply eval_as_no_spin|intros v _; apply IH; assumption].
  - apply traced_bind; [apply eval_as_no_spin|intros v _; apply IH; assumption].
  - destruct (l x) as [[? t]|]; [|intros [=]].
    apply traced_bind; [apply eval_as_no_spin|intros v _; apply IH; assumption].
  - specialize (Qscan i).
    destruct (scan_loop sp (S (S (length (s_data i)))) 0 i) as [[r i1]|e] eqn:Es; cbn [bind fst snd].
    + apply IH; [exact Hs|]. exact (Qscan r i1 Hq eq_refl).
    + intros -> _. exists i. split; [exact Hq|exact Es].
  - destruct Hs as [Ha Hb]. apply traced_bind; [intros Hc; apply eval_not; [reflexivity|exact Hc]|intros v _].
    destruct (fst v =? 0); [apply IHb|apply IHa]; assumption.
Qed.

Corollary run_r_inv p s l i s' i' : seeks_in p -> Q i -> run_r cs call sp cap p s l i = Ok (s', i') -> Q i'.
Proof. intros Hs Hq H. pose proof (run_r_traced p s l i Hs Hq) as T. rewrite H in T. exact T. Qed.

Corollary run_r_ends : (forall tg m s, call tg m s <> Err ESpin) ->
  (forall j, Q j -> scan_loop sp (S (S (length (s_data j)))) 0 j <> Err ESpin) ->
  forall p s l i, seeks_in p -> Q i -> run_r cs call sp cap p s l i <> Err ESpin.
Proof.
  intros Hc Hn p s l i Hs Hq H. pose proof (run_r_traced p s l i Hs Hq) as T. rewrite H in T.
  destruct (T eq_refl Hc) as (j & Hj & Ej). exact (Hn j Hj Ej).
Qed.

End ReadProg.

Lemma seeks_in_any cs call p : seeks_in cs call (fun _ => True) p.
Proof. induction p; cbn [seeks_in]; auto. Qed.
