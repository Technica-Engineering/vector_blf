(* UFFacts.v — what a single call of the UncompressedFile model (C15) does, for every state and
   whatever the container list holds.  That the bytes come back in order is Lib/UFRefine.v. *)
From Coq Require Import List ZArith Bool Lia.
From VB Require Import BaseFacts UFModel.
Import ListNotations.
Local Open Scope Z_scope.

Lemma containing_range d x c : containing d x = Some c -> c_pos c <= x < c_end c.
Proof. unfold containing, contains. intros H. apply find_some in H. lia. Qed.

Lemma containing_skip x d2 : forall d1, Forall (fun c => contains x c = false) d1 ->
  containing (d1 ++ d2) x = containing d2 x /\ forall f, update_containing (d1 ++ d2) x f = d1 ++ update_containing d2 x f.
Proof.
  induction 1 as [|c r Hc _ [IH1 IH2]]; [split; reflexivity|].
  unfold containing in *. cbn [app find update_containing]. rewrite Hc. split; [exact IH1|]. intros f. rewrite IH2. reflexivity.
Qed.

Lemma drop_all_suffix : forall d tg tp fsz, exists gone,
  d = gone ++ drop_all d tg tp fsz /\ Forall (fun c => c_end c <= tg /\ c_end c <= tp /\ c_end c <= fsz) gone /\
  match drop_all d tg tp fsz with
  | [] => True
  | c :: _ => tg < c_end c \/ tp < c_end c \/ fsz < c_end c
  end.
Proof.
  induction d as [|c r IH]; intros tg tp fsz; cbn [drop_all].
  - exists []. repeat split; constructor.
  - destruct ((tg <? c_end c) || (tp <? c_end c) || (fsz <? c_end c)) eqn:G.
    + exists []. repeat split; [constructor|lia].
    + destruct (IH tg tp fsz) as (gone & E & F & M). exists (c :: gone). split; [cbn; f_equal; exact E|]. split; [|exact M].
      constructor; [lia|exact F].
Qed.

Theorem drop_frame : forall s,
  let s' := uf_drop s in
  u_tellg s' = u_tellg s /\ u_tellp s' = u_tellp s /\ u_fsz s' = u_fsz s /\ u_rd s' = u_rd s /\ u_gcount s' = u_gcount s /\
  exists gone, u_data s = gone ++ u_data s' /\
    Forall (fun c => c_end c <= u_tellg s /\ c_end c <= u_tellp s /\ c_end c <= u_fsz s) gone /\
    match u_data s' with [] => True | c :: _ => u_tellg s < c_end c \/ u_tellp s < c_end c \/ u_fsz s < c_end c end.
Proof.
  intros s. cbn. repeat split; auto. apply drop_all_suffix.
Qed.

(* the dropped containers end at or before the get position (containing_skip) *)
Theorem drop_keeps_unread : forall s x, u_tellg s <= x ->
  containing (u_data (uf_drop s)) x = containing (u_data s) x.
Proof.
  intros s x Hx. destruct (drop_all_suffix (u_data s) (u_tellg s) (u_tellp s) (u_fsz s)) as (gone & E & F & _). cbn [uf_drop u_data]. rewrite E at 2. symmetry.
  apply containing_skip. eapply Forall_impl; [|exact F]. intros c (Hc & _).
  unfold contains. lia.
Qed.

Lemma write_loop_advances : forall fuel dcs d tp bs d' tp',
  write_loop fuel dcs d tp bs = Some (d', tp') -> tp' = tp + Z.of_nat (length bs).
Proof.
  induction fuel as [|fuel IH]; intros dcs d tp bs d' tp' H; (destruct bs as [|b bs]; [inversion H; cbn; lia|]).
  - discriminate.
  - cbn [write_loop] in H.
    destruct (containing d tp) as [c|] eqn:Hc.
    + (* tp lies in c, so at least one byte goes into it *)
      apply containing_range in Hc. unfold c_end in Hc.
      apply IH in H. rewrite H, skipn_length. lia.
    + destruct (tp - c_pos (new_cont d tp dcs) <? 0); [discriminate|].
      destruct (0 <? _) eqn:Hp; apply IH in H; [|exact H].
      rewrite H, skipn_length. lia.
Qed.

Theorem write_advances : forall s bs s' notes, uf_write s bs = Some (s', notes) ->
  u_tellp s' = u_tellp s + Z.of_nat (length bs) /\ u_tellg s' = u_tellg s /\ u_gcount s' = u_gcount s /\ u_rd s' = u_rd s /\ u_tellp s' <= u_fsz s' /\ (u_fsz s' = u_fsz s \/ u_fsz s' = u_tellp s') /\ notes = [CVU_tellp].
Proof.
  intros s bs s' notes H. unfold uf_write in H.
  destruct (write_loop _ _ _ _ _) as [[d tp]|] eqn:W; [|discriminate].
  apply write_loop_advances in W. inversion H; subst; clear H. cbn.
  destruct (Z.leb_spec (u_fsz s) (u_tellp s + Z.of_nat (length bs))); repeat split; auto; lia.
Qed.

Theorem writec_advances : forall s bs,
  let '(s', notes) := uf_writec s bs in
  u_tellp s' = u_tellp s + Z.of_nat (length bs) /\ u_tellg s' = u_tellg s /\ u_fsz s' = u_fsz s /\ u_rd s' = u_rd s /\ notes = [CVU_tellp] /\ exists d, u_data s' = d ++ [{| c_pos := u_tellp s; c_data := bs |}].
Proof. intros s bs. cbn. repeat split; auto. eexists. reflexivity. Qed.

Lemma slice_length off n (l : list Z) : 0 <= off -> 0 <= n -> off + n <= Z.of_nat (length l) -> Z.of_nat (length (slice off n l)) = n.
Proof. intros. unfold slice. rewrite firstn_length, skipn_length. lia. Qed.

Lemma read_loop_bounds : forall fuel d tg n acc tg' out,
  read_loop fuel d tg n acc = (tg', out) ->
  tg <= tg' /\ tg' - tg <= Z.max 0 n /\ Z.of_nat (length out) = Z.of_nat (length acc) + (tg' - tg).
Proof.
  induction fuel as [|fuel IH]; intros d tg n acc tg' out H; cbn [read_loop] in H.
  - inversion H; subst. lia.
  - destruct (n <=? 0) eqn:N; [inversion H; subst; lia|].
    destruct (containing d tg) as [c|] eqn:Hc; [|inversion H; subst; lia].
    (* tg lies in c, so between 1 and n bytes are taken from it, all of them there *)
    apply containing_range in Hc. unfold c_end, c_size in *.
    apply IH in H. rewrite app_length, Nat2Z.inj_add, slice_length in H by lia. lia.
Qed.

(* the max in the fourth conjunct: a request that crosses the declared end does not pass it unless it started beyond;
   eof|fail reflect this read only (a later request of n > 0 that does not cross clears them) *)
Theorem read_counts : forall s n,
  let '(s', bytes, notes) := uf_read s n in
  u_gcount s' = Z.of_nat (length bytes) /\ u_tellg s' = u_tellg s + u_gcount s' /\ 0 <= u_gcount s' <= Z.max 0 n /\ (u_fsz s < n + u_tellg s -> u_tellg s' <= Z.max (u_tellg s) (u_fsz s)) /\ (u_fsz s < n + u_tellg s -> uf_good s' = false /\ uf_eof s' = true) /\ (n + u_tellg s <= u_fsz s -> 0 < n -> uf_good s' = true /\ uf_eof s' = false) /\
  (n + u_tellg s <= u_fsz s -> n <= 0 -> u_rd s' = u_rd s) /\ u_tellp s' = u_tellp s /\ u_data s' = u_data s /\ u_fsz s' = u_fsz s /\ u_buf s' = Z.max (u_buf s) n /\ In CVU_tellg notes.
Proof.
  intros s n. unfold uf_read.
  destruct (read_loop _ _ _ _ _) as [tg bytes] eqn:R. apply read_loop_bounds in R. cbn [length] in R. cbn.
  rewrite ltb_max.
  destruct (Z.ltb_spec (u_fsz s) (n + u_tellg s)); [|destruct (Z.ltb_spec 0 n)]; repeat split; auto; lia.
Qed.

Theorem seekg_clamped : forall s off,
  let '(s', notes) := uf_seekg s off in
  u_tellg s' = Z.min (u_tellg s + off) (u_fsz s) /\ u_tellp s' = u_tellp s /\ u_data s' = u_data s /\ u_rd s' = u_rd s /\ notes = [CVU_tellg].
Proof. intros. cbn. auto. Qed.

Theorem uf_abort_releases : forall s n,
  let '(s', notes) := uf_abort s in
  uf_read_guard s' n = true /\ uf_write_guard s' = true /\ uf_writec_guard s' = true /\ In CVU_tellg notes /\ In CVU_tellp notes.
Proof. intros. cbn. repeat split; auto. Qed.

(* read(n) sleeps on tellpChanged, write on tellgChanged.  write, write(container) and setFileSize notify the former,
   read and seekg the latter, whether or not a predicate changed (the premises are not used).  abort is
   uf_abort_releases; setBufferSize notifies nobody. *)
Theorem uf_wakeups : forall s,
  (forall n bs s' notes, uf_write s bs = Some (s', notes) -> uf_read_guard s n = false -> uf_read_guard s' n = true -> In CVU_tellp notes) /\ (forall n bs, uf_read_guard s n = false -> uf_read_guard (fst (uf_writec s bs)) n = true -> In CVU_tellp (snd (uf_writec s bs))) /\ (forall n k, uf_read_guard s n = false -> uf_read_guard (fst (uf_setFileSize s k)) n = true -> In CVU_tellp (snd (uf_setFileSize s k))) /\ (forall n, uf_write_guard s = false -> uf_write_guard (fst (fst (uf_read s n))) = true -> In CVU_tellg (snd (uf_read s n))) /\ (forall off, uf_write_guard s = false -> uf_write_guard (fst (uf_seekg s off)) = true -> In CVU_tellg (snd (uf_seekg s off))).
Proof.
  intros s. repeat split.
  - intros n bs s' notes H _ _. apply write_advances in H. destruct H as (_ & _ & _ & _ & _ & _ & H). subst. left. reflexivity.
  - intros. cbn. left. reflexivity.
  - intros. cbn. left. reflexivity.
  - intros n _ _. unfold uf_read. destruct (read_loop _ _ _ _ _). cbn. left. reflexivity.
  - intros. cbn. left. reflexivity.
Qed.

(* an example run: four containers of sizes 3 (closed early), 2 (appended whole), 4, 4; reads across them; the drops leave the last *)
Definition ex_hist : list uop :=
  [USetDcs 4; UWrite [1;2;3]; UNext; UWriteC [4;5]; UWrite [6;7;8;9;10]; URead 4; UDrop; URead 6; UDrop].
Fixpoint urun (s : uf) (ops : list uop) : option (uf * list Z) :=
  match ops with
  | [] => Some (s, [])
  | o :: r => if uenabled s o then
                match ustep s o with
                | Some (s', b) => match urun s' r with Some (s'', bs) => Some (s'', b ++ bs) | None => None end
                | None => None end
              else None
  end.
Example ex_hist_fifo :
  match urun uf_init ex_hist with
  | Some (s, bytes) => bytes = [1;2;3;4;5;6;7;8;9;10] /\ u_tellg s = 10 /\ u_tellp s = 10 /\ map c_pos (u_data s) = [9]
  | None => False end.
Proof. vm_compute. repeat split; reflexivity. Qed.
