(* TermFacts.v — C10, hang-freedom of the two reader stages, for EVERY input and every allocation cap.  The parser stage
   FileModel.obj_loop, run with the fuel read_session gives it (2 |U| + 16), never runs out of fuel, whatever the class table
   as long as its read programs only seek forward: each iteration that goes on moves the get position of the in-memory
   stream forward by at least one byte.  Neither does the inflating stage FileModel.cont_loop, on a std::fstream that
   File::close may close at any moment: each iteration that goes on has consumed a 16-byte header that lay inside the file.
   What the signature search and a read program keep of a stream is said once, in ReadProg.v; this file has the
   invariants of the two stream flavours and what follows for them. *)
From VB Require Import Base IR Sem BaseFacts StreamFacts CallFacts ReadProg FileModel FileFacts.
Local Open Scope Z_scope.

(* a stream of the in-memory flavour: the zipper holds the data, its cursor sits at the get position clamped into the data
   (a relative seek may leave the position negative; reads then deliver nothing) *)
Definition wstream (i : istream) : Prop :=
  s_sticky i = false /\ s_cur i = zlen (s_before i) /\ s_size i = zlen (s_before i) + zlen (s_after i) /\
  s_cur i = Z.max 0 (s_pos i) /\ s_pos i <= s_size i.

Lemma wstream_at i : wstream i -> exists d p g e o, p <= zlen d /\ i = ustream_at d p g e o.
Proof.
  intros (H1 & H2 & H3 & H4 & H5). exists (s_data i), (s_pos i), (s_good i), (s_eof i), (s_open i).
  split; [rewrite data_len; lia|apply stream_at; assumption].
Qed.

Lemma wstream_le i : wstream i -> s_pos i <= s_size i.
Proof. intros (_ & _ & _ & _ & H). exact H. Qed.

Lemma wstream_ustream d p g e o : p <= zlen d -> wstream (ustream_at d p g e o).
Proof.
  intros Hp. unfold wstream, ustream_at. cbn. rewrite zlen_rev, zlen_ztake, zlen_zdrop by lia. repeat split; lia.
Qed.

(* how many bytes a read of n delivers on the in-memory flavour (none at a negative position) and whether it falls short:
   len and short of StreamFacts.read_at *)
Definition rd_len (i : istream) (n : Z) : Z :=
  let n' := if s_size i <? n + s_pos i then s_size i - s_pos i else n in
  if (n' <=? 0) || (s_pos i <? 0) then 0 else n'.
Definition rd_short (i : istream) (n : Z) : bool := s_size i <? n + s_pos i.

Lemma ws_read n i : wstream i ->
  let '(got, i') := s_read n i in
  wstream i' /\ s_size i' = s_size i /\ s_pos i' = s_pos i + rd_len i n /\ zlen got = rd_len i n /\
  s_good i' = (if negb (rd_short i n) && (n <=? 0) then s_good i else negb (rd_short i n)) /\
  s_eof i' = (if negb (rd_short i n) && (n <=? 0) then s_eof i else rd_short i n).
Proof.
  intros W. destruct (wstream_at i W) as (d & p & g & e & o & Hp & ->). rewrite read_at by exact Hp.
  unfold rd_len, rd_short. cbn [ustream_at s_size s_pos s_good s_eof].
  set (len := if _ || _ then 0 else _).
  assert (Hl : 0 <= len /\ p + len <= zlen d /\ (0 < len -> 0 <= p))
    by (unfold len; destruct (zlen d <? n + p) eqn:S; destruct (_ || _) eqn:E; lia).
  split; [apply wstream_ustream; lia|]. repeat split.
  destruct (Z.eqb_spec len 0) as [->|]; [reflexivity|]. rewrite zlen_ztake; rewrite ?zlen_zdrop; lia.
Qed.

Lemma ws_seek off i : wstream i ->
  wstream (s_seek off i) /\ s_size (s_seek off i) = s_size i /\ s_pos (s_seek off i) = Z.min (s_pos i + off) (s_size i) /\
  s_good (s_seek off i) = s_good i /\ s_eof (s_seek off i) = s_eof i.
Proof.
  intros W. destruct (wstream_at i W) as (d & p & g & e & o & Hp & ->). rewrite seek_at by exact Hp.
  split; [apply wstream_ustream; lia|repeat split].
Qed.

Definition pstream (i : istream) : Prop := wstream i /\ 0 <= s_pos i.

Lemma nstream_pstream i : nstream i -> pstream i.
Proof.
  intros (H1 & H2 & H3 & H4). pose proof (zlen_nonneg (s_before i)). pose proof (zlen_nonneg (s_after i)).
  split; [|lia]. unfold wstream. repeat split; try assumption; lia.
Qed.

Lemma rd_len_nonneg i n : 0 <= rd_len i n.
Proof. unfold rd_len. destruct ((_ <=? 0) || _) eqn:E; lia. Qed.

Lemma rd_short_end i n : wstream i -> 0 <= s_pos i -> rd_short i n = true -> s_pos i + rd_len i n = s_size i.
Proof.
  intros W Hp Hs. pose proof (wstream_le i W). unfold rd_short in Hs. unfold rd_len. rewrite Hs.
  destruct ((s_size i - s_pos i <=? 0) || (s_pos i <? 0)) eqn:E; lia.
Qed.
Lemma rd_full i n : 0 <= s_pos i -> 0 < n -> rd_short i n = false -> rd_len i n = n.
Proof.
  intros Hp Hn Hs. unfold rd_short in Hs. unfold rd_len. rewrite Hs.
  destruct ((n <=? 0) || (s_pos i <? 0)) eqn:E; lia.
Qed.

Lemma pstream_seek off i : pstream i -> 0 <= s_pos i + off ->
  pstream (s_seek off i) /\ s_size (s_seek off i) = s_size i /\ s_pos (s_seek off i) = Z.min (s_pos i + off) (s_size i).
Proof.
  intros [W P] Hn. destruct (ws_seek off i W) as (A & B & C & _). pose proof (wstream_le i W).
  repeat split; auto; try apply A; lia.
Qed.

Lemma pstream_range i : pstream i -> 0 <= s_pos i <= s_size i.
Proof. intros [W P]. pose proof (wstream_le i W). lia. Qed.

(* a stream reached from i0 without moving back *)
Definition pfrom (i0 j : istream) : Prop := pstream j /\ s_size j = s_size i0 /\ s_pos i0 <= s_pos j.
(* ... after reads that asked for c bytes in all, the last for at least one: one fell short, so the stream is at its end, failed,
   with eof — or it is good and at least c bytes further than i0 *)
Definition pread (c : Z) (i0 j : istream) : Prop :=
  pfrom i0 j /\ (s_pos j = s_size j /\ s_good j = false /\ s_eof j = true \/ s_pos i0 + c <= s_pos j /\ s_good j = true /\ s_eof j = false).

Lemma pfrom_refl i : pstream i -> pfrom i i.
Proof. intros Hp. split; [exact Hp|lia]. Qed.

Lemma pfrom_read i0 n j : pfrom i0 j -> pfrom i0 (snd (s_read n j)).
Proof.
  intros ([W P] & S & L). pose proof (ws_read n j W) as R. destruct (s_read n j) as [got j1]. cbn [snd].
  destruct R as (W1 & S1 & L1 & _). pose proof (rd_len_nonneg j n). split; [split; [exact W1|lia]|lia].
Qed.

Lemma pfrom_seek i0 off j : 0 <= off -> pfrom i0 j -> pfrom i0 (s_seek off j).
Proof.
  intros Ho (P & S & L). pose proof (pstream_range j P). destruct (pstream_seek off j P) as (P1 & S1 & L1); [lia|].
  split; [exact P1|lia].
Qed.

Lemma pread_link i0 c w j : pfrom i0 j -> s_pos j = s_size j \/ s_pos i0 + c <= s_pos j -> 0 < w ->
  pread (c + w) i0 (snd (s_read w j)).
Proof.
  intros ([W P] & Hz & Hl) Hc Hw. pose proof (ws_read w j W) as R. destruct (s_read w j) as [got j1]. cbn [snd].
  destruct R as (W1 & S1 & Pos1 & _ & G1 & E1). pose proof (rd_len_nonneg j w).
  replace (w <=? 0) with false in G1, E1 by lia. rewrite andb_false_r in G1, E1. unfold pread. rewrite G1, E1.
  split; [split; [split; [exact W1|lia]|lia]|]. destruct (rd_short j w) eqn:Sh.
  - left. pose proof (rd_short_end j w W P Sh). repeat split; lia.
  - right. pose proof (rd_full j w P Hw Sh). unfold rd_short in Sh. repeat split; lia.
Qed.

(* what remains to be read bounds the rounds of a search; the fuel read programs give it is enough *)
Definition togo (i : istream) : nat := S (Z.to_nat (s_size i - s_pos i)).

Lemma search_fuel i : s_size i = zlen (s_before i) + zlen (s_after i) -> 0 <= s_pos i ->
  (Z.to_nat (s_size i - s_pos i) + 2 <= S (S (length (s_data i))))%nat.
Proof. intros Hz Hp. pose proof (data_len i) as D. unfold zlen in *. lia. Qed.

Section Search.
Variable sp : scan_params.

(* the signature search seeks back by at most 3 bytes after reading 4 *)
Definition rules_ok : bool := forallb (fun r => (-3 <=? snd r) && (snd r <=? 0)) (sp_rules sp).

Lemma scan_rule_range tmp : rules_ok = true -> -3 <= scan_rule (sp_rules sp) tmp <= 0.
Proof.
  unfold rules_ok, scan_rule. induction (sp_rules sp) as [|[[m v] k] r IH]; intros H; [lia|].
  cbn [forallb snd] in H. apply andb_prop in H. destruct H as [H1 H2]. destruct (Z.land m tmp =? v); [lia|apply IH; exact H2].
Qed.

(* a round that goes on has read 4 bytes that were there and seeks back at most 3 *)
Lemma p_round i0 : rules_ok = true -> scan_round sp (pfrom i0) (pread 4 i0) (fun i j => (togo j < togo i)%nat).
Proof.
  intros HR tmp i (Hp & Hz & Hl). pose proof (pstream_range i Hp).
  pose proof (pread_link i 0 4 i (pfrom_refl i Hp) ltac:(lia) eq_refl) as R.
  destruct (s_read 4 i) as [got i1]. cbn [snd] in *. destruct R as ((P1 & S1 & L1) & R). pose proof (pstream_range i1 P1).
  split; [split; [split; [exact P1|lia]|destruct R as [(A1 & A2)|(A1 & A2)]; [left|right]; (split; [lia|exact A2])]|]. intros St.
  destruct R as [(_ & G & Ef)|(L4 & _)]; [rewrite scan_stop_failed in St by assumption; discriminate|].
  pose proof (scan_rule_range tmp HR) as Rk. unfold scan_next, togo. set (k := scan_rule (sp_rules sp) tmp) in *.
  destruct (k =? 0); [split; [split; [exact P1|]|]; lia|].
  destruct (pstream_seek k i1 P1) as (P2 & S2 & Pos2); [lia|]. split; [split; [exact P2|]|]; lia.
Qed.

Lemma pfrom_scan i0 : rules_ok = true -> forall n tmp j r j1, pfrom i0 j -> scan_loop sp n tmp j = Ok (r, j1) -> pfrom i0 j1.
Proof. intros HR n tmp j r j1 F H. apply (scan_inv sp _ _ _ (p_round i0 HR) n tmp j r j1 F H). Qed.

Lemma scan_mono : rules_ok = true -> forall n tmp i r i', pstream i -> scan_loop sp n tmp i = Ok (r, i') ->
  pstream i' /\ s_size i' = s_size i /\ s_pos i <= s_pos i' /\ (s_pos i' = s_size i' \/ s_pos i + 4 <= s_pos i').
Proof.
  intros HR n tmp i r i' Hp H. destruct (scan_inv sp _ _ _ (p_round i HR) n tmp i r i') as ((A & B & C) & D); auto using pfrom_refl.
  repeat split; try apply A; lia.
Qed.

(* at the end already: the first read delivers nothing and ends the search *)
Lemma scan_at_end n i : pstream i -> s_pos i = s_size i -> sp_sig sp <> 0 -> scan_loop sp (S n) 0 i = Err EThrow.
Proof.
  intros [W P] E Hsig. cbn [scan_loop].
  pose proof (ws_read 4 i W) as R. destruct (s_read 4 i) as [got i1]. destruct R as (_ & _ & _ & Lg & Good1 & Eof1).
  assert (Sh : rd_short i 4 = true) by (unfold rd_short; lia).
  assert (L0 : rd_len i 4 = 0) by (pose proof (rd_short_end i 4 W P Sh); lia).
  rewrite L0 in Lg. assert (got = []) by (apply length_zero_iff_nil; unfold zlen in Lg; lia). subst got.
  change (merge_scalar 4 0 []) with 0. replace (0 =? sp_sig sp) with false by lia.
  rewrite scan_stop_failed; [reflexivity|rewrite Good1, Sh; reflexivity|rewrite Eof1, Sh; reflexivity].
Qed.

Lemma scan_progress : rules_ok = true -> sp_sig sp <> 0 -> forall n i r i', pstream i -> scan_loop sp n 0 i = Ok (r, i') ->
  s_pos i + 1 <= s_pos i'.
Proof.
  intros HR Hsig n i r i' Hp H. destruct (scan_mono HR n 0 i r i' Hp H) as (A & B & C & [D|D]); [|lia].
  destruct (Z.eq_dec (s_pos i) (s_size i)) as [E|E].
  - exfalso. destruct n as [|n]; [discriminate|]. rewrite scan_at_end in H by assumption. discriminate.
  - lia.
Qed.

Lemma scan_no_spin_p : rules_ok = true -> forall n tmp i, pstream i -> (Z.to_nat (s_size i - s_pos i) + 2 <= n)%nat ->
  scan_loop sp n tmp i <> Err ESpin.
Proof.
  intros HR n tmp i Hp Hf. apply (scan_ends sp _ _ _ (p_round i HR) togo); [auto|apply pfrom_refl; exact Hp|unfold togo; lia].
Qed.

End Search.

Section SeekAmounts.
Variable cs : classes.
Variable call : target -> mid -> state -> res (Z * ity).

Definition u3264 (f : Z) : option ity :=
  match find_field cs f with
  | Some x => match f_kind x with KScalar U32 => Some U32 | KScalar U64 => Some U64 | _ => None end
  | None => None end.

(* the seek amounts that occur in read programs: constants and  <unsigned member> % <small positive constant>.
   1073741824 = 2^30, inside norm_small's 2^31: the constant and the remainder are themselves in every type involved *)
Definition seek_ok (e : expr) : bool :=
  match e with
  | EConst c _ => (0 <=? c) && (c <? 1073741824)
  | EBin OMod (EField f) (EConst c I32) => (0 <? c) && (c <? 1073741824) && match u3264 f with Some _ => true | None => false end
  | EBin OMod (EField f) (ESizeofT c) => (0 <? c) && (c <? 1073741824) && match u3264 f with Some _ => true | None => false end
  | _ => false
  end.

(* an unsigned 32- or 64-bit member modulo a small positive int or size_t constant: the common type is the member's or
   size_t, unsigned and wide enough to hold the constant, so the remainder is that of the mathematical values *)
Lemma umod_small f tb c s l r : u3264 f <> None -> tb = I32 \/ tb = U64 -> 0 < c < 1073741824 ->
  (do x <- eval cs call s l (EField f); eval_bin OMod x (c, tb)) = Ok r -> 0 <= fst r < 1073741824.
Proof.
  unfold u3264. cbn [eval]. intros Hf Hb Hc E.
  destruct (find_field cs f) as [x|]; [|contradiction]. destruct (s f) as [z| |]; try discriminate.
  destruct (f_kind x) as [ta| |]; try contradiction. cbn [bind eval_bin] in E.
  assert (Ht : signed (common ta tb) = false /\ 3 <= rank (common ta tb)).
  { destruct Hb as [-> | ->]; destruct ta; try contradiction; cbn; split; (reflexivity || lia). }
  destruct Ht as [Hs Hr]. set (t := common ta tb) in *.
  rewrite (norm_small t c Hr) in E by lia. replace (c =? 0) with false in E by lia.
  unfold arith in E. rewrite Hs in E. injection E as <-. cbn [fst].
  pose proof (norm_unsigned t z Hs). pose proof (Z.rem_bound_pos (norm t z) c). rewrite norm_small; lia.
Qed.

Lemma seek_ok_nonneg e s l off : seek_ok e = true -> eval_as cs call I64 s l e = Ok off -> 0 <= off.
Proof.
  unfold eval_as. intros H E.
  assert (R : exists r, eval cs call s l e = Ok r /\ 0 <= fst r < 1073741824).
  { destruct (eval cs call s l e) as [r|] eqn:Er; [|discriminate]. exists r. split; [reflexivity|].
    destruct e as [c t| | | | | |o a|o a b| |t a|]; try discriminate.
    - cbn [eval] in Er. injection Er as <-. cbn [seek_ok fst] in *. lia.
    - destruct o; try discriminate. destruct a as [| f | | | | | | | | |]; try discriminate.
      destruct b as [c t| | | | c | | | | | |]; try discriminate; [destruct t; try discriminate|];
        cbn [seek_ok] in H; cbn [eval] in Er; (apply (umod_small f _ c s l r) in Er; [exact Er|destruct (u3264 f); [discriminate|lia]|auto|lia]). }
  destruct R as (r & Er & Hr). rewrite Er in E. cbn [bind] in E. replace off with (norm I64 (fst r)) by congruence. rewrite norm_small; [lia|cbn; lia|lia].
Qed.

End SeekAmounts.

Section Forward.
Variable cs : classes.
Variable call : target -> mid -> state -> res (Z * ity).
Variable sp : scan_params.
Variable cap : Z.

(* every seek of the program goes forward *)
Fixpoint seeks_ok (p : prog) : bool :=
  match p with
  | PSeek e k => seek_ok cs e && seeks_ok k
  | PIf _ a b => seeks_ok a && seeks_ok b
  | PRead _ k | PReadBytes _ _ k | PResize _ _ k | PAssign _ _ k | PDecl _ _ _ k | PSet _ _ k | PScan k => seeks_ok k
  | _ => true
  end.

Lemma seeks_ok_fwd p : seeks_ok p = true -> seeks_in cs call (fun off => 0 <= off) p.
Proof.
  induction p; cbn [seeks_ok seeks_in]; intros H; auto; apply andb_prop in H; destruct H as [H1 H2]; split; auto.
  intros s l off. apply seek_ok_nonneg. exact H1.
Qed.

Theorem run_r_mono : rules_ok sp = true -> forall p s l i s' i', seeks_ok p = true -> pstream i ->
  run_r cs call sp cap p s l i = Ok (s', i') ->
  pstream i' /\ s_size i' = s_size i /\ s_pos i <= s_pos i'.
Proof.
  intros HR p s l i s' i' Hs Hp.
  apply run_r_inv with (A := fun off => 0 <= off) (Q := pfrom i); [| | |apply seeks_ok_fwd; exact Hs|apply pfrom_refl; exact Hp].
  - intros n j. apply pfrom_read.
  - intros off j. apply pfrom_seek.
  - intros j r j1. apply pfrom_scan. exact HR.
Qed.

Theorem run_r_no_spin_p : rules_ok sp = true -> (forall tg m s, call tg m s <> Err ESpin) ->
  forall p s l i, seeks_ok p = true -> pstream i -> run_r cs call sp cap p s l i <> Err ESpin.
Proof.
  intros HR Hcall p s l i Hs Hp.
  apply run_r_ends with (A := fun off => 0 <= off) (Q := pfrom i); auto using seeks_ok_fwd, pfrom_refl.
  - intros n j. apply pfrom_read.
  - intros off j. apply pfrom_seek.
  - intros j r j1. apply pfrom_scan. exact HR.
  - intros j (P & _). apply scan_no_spin_p; [exact HR|exact P|apply search_fuel; apply P].
Qed.

(* a program that begins with the signature search consumes at least one byte, also when assignments to members precede
   it (a reader that first resets its own version selector) *)
Fixpoint starts_with_scan (p : prog) : bool :=
  match p with
  | PScan k => seeks_ok k
  | PAssign _ _ k => starts_with_scan k
  | _ => false
  end.

Lemma starts_seeks p : starts_with_scan p = true -> seeks_ok p = true.
Proof. induction p; cbn [starts_with_scan seeks_ok]; intros H; try discriminate; auto. Qed.

Lemma run_r_start_progress : rules_ok sp = true -> sp_sig sp <> 0 -> forall p s l i s' i', starts_with_scan p = true -> pstream i ->
  run_r cs call sp cap p s l i = Ok (s', i') ->
  pstream i' /\ s_size i' = s_size i /\ s_pos i + 1 <= s_pos i'.
Proof.
  intros HR Hsig. induction p; intros s l i s' i' Hs Hp H; cbn [starts_with_scan] in Hs; try discriminate.
  - apply assign_inv in H. destruct H as [s1 H]. exact (IHp _ _ _ _ _ Hs Hp H).
  - apply search_inv in H. destruct H as (r & i1 & Es & H).
    destruct (scan_mono sp HR _ _ _ _ _ Hp Es) as (A1 & B1 & _). pose proof (scan_progress sp HR Hsig _ _ _ _ Hp Es) as Pr.
    destruct (run_r_mono HR p _ _ _ _ _ Hs A1 H) as (A & B & C). split; [exact A|]. split; lia.
Qed.

End Forward.

(* the guard of the loop's seek back to the declared end dend of an object (repo fix 2addb99): wherever the seek by tmp lands,
   the loop goes on at dend or behind it, as far as the stream reaches *)
Lemma landing i3 tmp dend : wstream i3 ->
  let j := s_seek tmp i3 in let i4 := if s_pos j <? dend then s_seek (dend - s_pos j) j else j in
  wstream i4 /\ s_size i4 = s_size i3 /\ Z.min dend (s_size i3) <= s_pos i4.
Proof.
  intros W3 j. destruct (ws_seek tmp i3 W3) as (Wj & Sj & Pj & _). fold j in Wj, Sj, Pj. cbv zeta.
  destruct (s_pos j <? dend) eqn:Eg.
  - destruct (ws_seek (dend - s_pos j) j Wj) as (W5 & S5 & P5 & _). split; [exact W5|]. split; lia.
  - split; [exact Wj|]. split; lia.
Qed.

(* k is  PRead f1 (PRead f2 (PRead f3 (PRead f4 k'))), in a goal that is void otherwise; k' is called k again *)
Ltac four_reads k f1 f2 f3 f4 :=
  destruct k as [| | | |f1 k| | | | | | | | | | |]; try discriminate;
  destruct k as [| | | |f2 k| | | | | | | | | | |]; try discriminate;
  destruct k as [| | | |f3 k| | | | | | | | | | |]; try discriminate;
  destruct k as [| | | |f4 k| | | | | | | | | | |]; try discriminate.

Section ObjLoop.
Variable cs : classes.
Variable sp : scan_params.
Variable cap : Z.
Variable factory : list (Z * Z).
Variables C_ohb F_osz F_otype : Z.

Definition wid (f w : Z) : bool :=
  match find_field cs f with
  | Some x => match ksize (f_kind x) with Some w' => w' =? w | None => false end
  | None => false end.
(* ObjectHeaderBase::read: the signature search, then headerSize (2), headerVersion (2), objectSize (4), objectType (4) *)
Definition ohb_shape (p : prog) : bool :=
  match p with
  | PScan (PRead f1 (PRead f2 (PRead f3 (PRead f4 PEnd)))) => wid f1 2 && wid f2 2 && wid f3 4 && wid f4 4
  | _ => false
  end.
(* a class's read program: starts with the signature search (the inlined base header read), seeks only forward *)
Definition class_ok (c : Z) : bool := starts_with_scan cs (prog_of cs c M_read).

Section Header.
Variable call : target -> mid -> state -> res (Z * ity).

Lemma read_inv f w k s l j r : wid f w = true -> run_r cs call sp cap (PRead f k) s l j = Ok r ->
  exists s1, run_r cs call sp cap k s1 l (snd (s_read w j)) = Ok r.
Proof.
  unfold wid. cbn [run_r]. destruct (find_field cs f) as [x|]; [|discriminate]. destruct (ksize (f_kind x)) as [w'|]; [|discriminate].
  intros W. apply Z.eqb_eq in W. subst w'. destruct (s_read w j) as [got j1]. cbn [snd].
  destruct (read_into x (s f) got) as [v|]; cbn [bind]; [eauto|discriminate].
Qed.

(* whatever a read of w bytes does to the count c of a stream property A c (pread, sread), the four reads behind the
   signature, 2 + 2 + 4 + 4 bytes, take it from A 4 to A 16 *)
Variable A : Z -> istream -> Prop.
Hypothesis Alink : forall c w j, A c j -> 0 < w -> A (c + w) (snd (s_read w j)).

Lemma header_reads f1 f2 f3 f4 k s l j r : wid f1 2 && wid f2 2 && wid f3 4 && wid f4 4 = true -> A 4 j ->
  run_r cs call sp cap (PRead f1 (PRead f2 (PRead f3 (PRead f4 k)))) s l j = Ok r ->
  exists s1 j1, A 16 j1 /\ run_r cs call sp cap k s1 l j1 = Ok r.
Proof.
  intros W Hj H. apply andb_prop in W. destruct W as [W W4]. apply andb_prop in W. destruct W as [W W3].
  apply andb_prop in W. destruct W as [W1 W2].
  apply (read_inv _ _ _ _ _ _ _ W1) in H. destruct H as [s1 H]. apply (Alink _ 2) in Hj; [|reflexivity].
  apply (read_inv _ _ _ _ _ _ _ W2) in H. destruct H as [s2 H]. apply (Alink _ 2) in Hj; [|reflexivity].
  apply (read_inv _ _ _ _ _ _ _ W3) in H. destruct H as [s3 H]. apply (Alink _ 4) in Hj; [|reflexivity].
  apply (read_inv _ _ _ _ _ _ _ W4) in H. destruct H as [s4 H]. apply (Alink _ 4) in Hj; [|reflexivity].
  eauto.
Qed.

End Header.

Hypothesis HR : rules_ok sp = true.
Hypothesis Hsig : sp_sig sp <> 0.
Hypothesis Hohb : ohb_shape (prog_of cs C_ohb M_read) = true.
Hypothesis Hcls : forall code, lookup_factory factory code <> 0 -> class_ok (lookup_factory factory code) = true.

Lemma ohb_shape_inv p : ohb_shape p = true -> exists f1 f2 f3 f4,
  p = PScan (PRead f1 (PRead f2 (PRead f3 (PRead f4 PEnd)))) /\ wid f1 2 && wid f2 2 && wid f3 4 && wid f4 4 = true.
Proof.
  intros H. destruct p as [| | | | | | | | | | | | | |k|]; try discriminate. four_reads k f1 f2 f3 f4.
  destruct k; try discriminate. eauto 6.
Qed.

Lemma ohb_seeks p : ohb_shape p = true -> seeks_ok cs p = true.
Proof. intros H. destruct (ohb_shape_inv p H) as (f1 & f2 & f3 & f4 & -> & _). reflexivity. Qed.

Lemma ohb_consumes call p s l i h i1 : ohb_shape p = true -> pstream i ->
  run_r cs call sp cap p s l i = Ok (h, i1) -> s_good i1 = true ->
  pstream i1 /\ s_size i1 = s_size i /\ s_pos i + 16 <= s_pos i1.
Proof using HR Hcls C_ohb.
  intros Hshape Hp H Hg. destruct (ohb_shape_inv p Hshape) as (f1 & f2 & f3 & f4 & -> & W).
  apply search_inv in H. destruct H as (r & j0 & Es & H).
  apply (scan_inv sp _ _ _ (p_round sp i HR)) in Es; [|apply pfrom_refl; exact Hp].
  assert (Hl : forall c w j, pread c i j -> 0 < w -> pread (c + w) i (snd (s_read w j))).
  { intros c w j (F & [(A & _)|(A & _)]) Hw; apply pread_link; auto. }
  destruct (header_reads call _ Hl _ _ _ _ _ _ _ _ _ W Es H) as (s1 & j1 & R & E).
  cbn [run_r] in E. injection E as <- <-. destruct R as ((P & Z & _) & [(_ & G & _)|(L & _)]); [congruence|auto].
Qed.

Lemma dec_no_spin c s i : seeks_ok cs (prog_of cs c M_read) = true -> pstream i -> dec cs sp cap c s i <> Err ESpin.
Proof. intros Hs Hp. apply run_r_no_spin_p; auto using callf_no_spin. Qed.

(* one iteration: it ends the loop, or the loop goes on at least one byte further *)
Lemma obj_iter fuel i acc count : pstream i ->
  snd (obj_loop cs sp cap factory C_ohb F_osz F_otype (S fuel) i acc count) <> EndFuel \/
  exists i' acc' count',
    obj_loop cs sp cap factory C_ohb F_osz F_otype (S fuel) i acc count = obj_loop cs sp cap factory C_ohb F_osz F_otype fuel i' acc' count' /\
    pstream i' /\ s_size i' = s_size i /\ s_pos i + 1 <= s_pos i'.
Proof.
  intros Hp. cbn [obj_loop].
  pose proof (dec_no_spin C_ohb (fresh cs C_ohb) i (ohb_seeks _ Hohb) Hp) as N.
  destruct (dec cs sp cap C_ohb (fresh cs C_ohb) i) as [[h i1]|e] eqn:E1; [clear N|left; destruct e; cbn; congruence].
  destruct (s_good i1) eqn:G1; cbn [negb]; [|left; cbn; discriminate].
  destruct (ohb_consumes _ _ _ _ _ _ _ Hohb Hp E1 G1) as (P1 & S1 & Pos1).
  pose proof (pstream_range i Hp). pose proof (pstream_range i1 P1).
  destruct (pstream_seek (-16) i1 P1) as (P2 & S2 & Pos2); [lia|]. set (i2 := s_seek (-16) i1) in *.
  rewrite !ltb_max. set (dsz := Z.max 16 (geti h F_osz)). assert (Hd : 16 <= dsz) by apply Z.le_max_l.
  destruct (lookup_factory factory (geti h F_otype) =? 0) eqn:Ec.
  - right. destruct (pstream_seek dsz i2 P2) as (P3 & S3 & Pos3); [lia|].
    do 3 eexists. split; [reflexivity|]. split; [exact P3|]. split; lia.
  - apply Z.eqb_neq in Ec. specialize (Hcls _ Ec). set (c := lookup_factory factory (geti h F_otype)) in *.
    destruct (osize cs c (fresh cs c)) as [sz0|]; [|left; cbn; discriminate]. unfold class_ok in Hcls.
    pose proof (dec_no_spin c (fresh cs c) i2 (starts_seeks cs _ Hcls) P2) as N.
    destruct (dec cs sp cap c (fresh cs c) i2) as [[o i3]|e] eqn:E3; [clear N|left; destruct e; cbn; congruence].
    destruct (s_good i3) eqn:G3; cbn [negb]; [|left; cbn; discriminate].
    destruct (run_r_start_progress cs (callf cs c) sp cap HR Hsig _ _ _ _ _ _ Hcls P2 E3) as (P3 & S3 & Pos3).
    right. do 3 eexists. split; [reflexivity|].
    set (tmp := if dsz <? sz0 then norm I32 (norm U32 (dsz - sz0)) else 0).
    destruct (tmp =? 0); [split; [exact P3|]; split; lia|].
    destruct (landing i3 tmp (s_pos i2 + dsz) (proj1 P3)) as (W4 & S4 & P4). split; [split; [exact W4|lia]|]. split; lia.
Qed.

(* as many iterations go on as bytes are left (obj_iter), and one more ends the loop: what is left + 1 would do.  The bound is
   written with + 2 like search_fuel's; the 2 |U| + 16 of read_session lies above either (parser_ends) *)
Theorem obj_loop_never_out_of_fuel : forall fuel i acc count, pstream i ->
  (Z.to_nat (s_size i - s_pos i) + 2 <= fuel)%nat ->
  snd (obj_loop cs sp cap factory C_ohb F_osz F_otype fuel i acc count) <> EndFuel.
Proof.
  induction fuel as [|fuel IH]; intros i acc count Hp Hf; [lia|].
  destruct (obj_iter fuel i acc count Hp) as [H|(i' & acc' & count' & -> & P & S & L)]; [exact H|].
  pose proof (pstream_range i' P). apply IH; [exact P|lia].
Qed.

(* with the fuel read_session gives the parser stage *)
Corollary parser_ends (U : list Z) :
  snd (obj_loop cs sp cap factory C_ohb F_osz F_otype (2 * length U + 16) (mk_ustream U) [] 0) <> EndFuel.
Proof.
  apply obj_loop_never_out_of_fuel.
  - apply nstream_pstream, nstream_mk.
  - cbn [s_size s_pos mk_ustream]. unfold zlen. lia.
Qed.

(* the normal end of the parser stage: at the end of the stream the header read throws the library's exception *)
Lemma loop_at_end fuel i acc count : pstream i -> s_pos i = s_size i ->
  obj_loop cs sp cap factory C_ohb F_osz F_otype (S fuel) i acc count = (acc, count, EndException).
Proof.
  intros Hp He. cbn [obj_loop]. unfold dec. destruct (ohb_shape_inv _ Hohb) as (f1 & f2 & f3 & f4 & -> & _).
  cbn [run_r]. rewrite (scan_at_end sp _ i Hp He Hsig). reflexivity.
Qed.

End ObjLoop.

(* a stream of the std::fstream flavour: a failed read sticks, and File::close may close the file under the reader's feet at
   any moment (Sem.s_open), so nothing is asked of the zipper's cursor *)
Definition sstream (i : istream) : Prop :=
  s_sticky i = true /\ s_size i = zlen (s_before i) + zlen (s_after i) /\ 0 <= s_pos i.

Lemma sstream_mk b : sstream (mk_fstream b).
Proof. unfold sstream, mk_fstream; cbn. split; [reflexivity|]. split; lia. Qed.
Lemma sstream_mk_closing b k : sstream (mk_fstream_closing b k).
Proof. unfold sstream, mk_fstream_closing; cbn. split; [reflexivity|]. split; lia. Qed.

Lemma st_read n i : sstream i ->
  let '(got, i') := s_read n i in
  sstream i' /\ s_size i' = s_size i /\ s_pos i <= s_pos i' /\
  (s_good i' = true -> s_good i = true /\ (0 < n -> s_pos i' = s_pos i + n /\ s_pos i + n <= s_size i)).
Proof.
  intros (Hs & Hz & Hp). unfold s_read, sstream. rewrite Hs.
  destruct (s_good i) eqn:G; cbn [negb]; [|rewrite G; repeat split; auto; (lia || discriminate)].
  destruct (Z.leb_spec n 0); [rewrite G; repeat split; auto; lia|].
  destruct (closed_now i); [cbn; repeat split; auto; (lia || discriminate)|].
  (* a read that cannot be served takes what is there and fails; one that can moves the position by n *)
  rewrite zip_take_spec. cbn [s_sticky s_size s_pos s_good s_before s_after]. rewrite zlen_app, zlen_rev, zlen_firstn, zlen_skipn.
  destruct (Z.ltb_spec (Z.max 0 (s_size i - s_pos i)) n); cbn [negb]; repeat split; try discriminate; unfold zlen in *; lia.
Qed.

Lemma zip_move_total b a c p : let '(b', a', _) := zip_move b a c p in zlen b' + zlen a' = zlen b + zlen a.
Proof.
  unfold zip_move. destruct (c <=? p); rewrite zip_fwd_gen, zlen_app, zlen_rev, zlen_firstn, zlen_skipn; lia.
Qed.

Lemma st_seek off i : sstream i ->
  sstream (s_seek off i) /\ s_size (s_seek off i) = s_size i /\
  (s_good (s_seek off i) = true -> s_good i = true /\ s_pos (s_seek off i) = s_pos i + off) /\
  (s_pos (s_seek off i) = s_pos i + off \/ s_pos (s_seek off i) = s_pos i).
Proof.
  intros (Hs & Hz & Hp). unfold s_seek, sstream. rewrite Hs.
  destruct (s_good i) eqn:G; [|rewrite G; repeat split; auto; discriminate].
  destruct (closed_now i || (s_pos i + off <? 0)) eqn:C; [cbn; repeat split; auto; discriminate|].
  apply orb_false_elim in C. destruct C as [_ C].
  pose proof (zip_move_total (s_before i) (s_after i) (s_cur i) (s_pos i + off)) as T.
  destruct (zip_move (s_before i) (s_after i) (s_cur i) (s_pos i + off)) as [[b a] c]. cbn. repeat split; auto; lia.
Qed.

(* a search that gives up at end of file only (the exit test the source had before repo fix b825602) never ends on a stream
   that has failed without reaching its end, e.g. after a seek on a file closed by File::close; C06_old_search_refuted rests on this *)
Lemma scan_spins_when_only_eof_stops sp : sp_stop_on_fail sp = false -> sp_sig sp <> 0 -> scan_rule (sp_rules sp) 0 = 0 ->
  forall n i, s_sticky i = true -> s_good i = false -> s_eof i = false -> scan_loop sp n 0 i = Err ESpin.
Proof.
  intros Hf Hsig Hr. induction n as [|n IH]; intros i Hs Hg He; [reflexivity|].
  cbn [scan_loop]. unfold s_read. rewrite Hs, Hg. cbn [negb]. change (merge_scalar 4 0 []) with 0.
  replace (0 =? sp_sig sp) with false by lia. unfold scan_stop. rewrite Hf, He. rewrite Hr. cbn [Z.eqb]. apply IH; assumption.
Qed.

(* a stream reached from i0 that, if it is still good, was good all the way and has not moved back *)
Definition sfrom (i0 j : istream) : Prop :=
  sstream j /\ s_size j = s_size i0 /\ (s_good j = true -> s_good i0 = true /\ s_pos i0 <= s_pos j).
(* ... just after a read of at least one byte: if it is still good, c bytes were there and were read *)
Definition sread (c : Z) (i0 j : istream) : Prop :=
  sstream j /\ s_size j = s_size i0 /\ (s_good j = true -> s_good i0 = true /\ s_pos i0 + c <= s_pos j /\ s_pos j <= s_size j).

Lemma sfrom_refl i : sstream i -> sfrom i i.
Proof. intros Hs. split; [exact Hs|]. split; [reflexivity|]. intros G. split; [exact G|lia]. Qed.

Lemma sfrom_read i0 n j : sfrom i0 j -> sfrom i0 (snd (s_read n j)).
Proof.
  intros (S & Z & G). pose proof (st_read n j S) as R. destruct (s_read n j) as [got j1]. destruct R as (S1 & Z1 & M1 & G1).
  split; [exact S1|]. split; [cbn [snd]; lia|]. intros G'. destruct (G1 G') as [G0 _]. destruct (G G0). split; [assumption|cbn [snd]; lia].
Qed.

Lemma sfrom_seek i0 off j : 0 <= off -> sfrom i0 j -> sfrom i0 (s_seek off j).
Proof.
  intros Ho (S & Z & G). destruct (st_seek off j S) as (S1 & Z1 & G1 & _).
  split; [exact S1|]. split; [lia|]. intros G'. destruct (G1 G') as [G0 P]. destruct (G G0). split; [assumption|lia].
Qed.

Lemma sread_link i0 c w j : sstream j -> s_size j = s_size i0 ->
  (s_good j = true -> s_good i0 = true /\ s_pos i0 + c <= s_pos j) -> 0 < w -> sread (c + w) i0 (snd (s_read w j)).
Proof.
  intros Hs Hz Hg Hw. pose proof (st_read w j Hs) as R. destruct (s_read w j) as [got j1]. destruct R as (S1 & Z1 & _ & G1).
  split; [exact S1|]. split; [cbn [snd]; lia|]. intros G. destruct (G1 G) as [G0 B]. destruct (B Hw). destruct (Hg G0).
  split; [assumption|cbn [snd]; lia].
Qed.

Section Sticky.
Variable cs : classes.
Variable call : target -> mid -> state -> res (Z * ity).
Variable sp : scan_params.
Variable cap : Z.
Hypothesis HR : rules_ok sp = true.

(* a round that goes on seeks back at most 3; if the search gives up on any failed stream, it has read 4 bytes that were there *)
Lemma s_round i0 : scan_round sp (sfrom i0) (sread 4 i0) (fun i j => sp_stop_on_fail sp = true -> (togo j < togo i)%nat).
Proof.
  intros tmp i Hi. pose proof (sfrom_read i0 4 i Hi) as F1. destruct Hi as (Hs & Hz & Hg).
  assert (R : sread (0 + 4) i (snd (s_read 4 i))) by (apply sread_link; [exact Hs|reflexivity|intros G; split; [exact G|lia]|reflexivity]).
  destruct (s_read 4 i) as [got i1]. cbn [snd] in *. destruct R as (S1 & Z1 & G1).
  split; [split; [exact S1|]; split; [lia|]; intros G; destruct (G1 G) as (G0 & L); destruct (Hg G0); split; [assumption|lia]|].
  intros St. pose proof (scan_rule_range sp tmp HR) as Rk. unfold scan_next, togo. set (k := scan_rule (sp_rules sp) tmp) in *.
  assert (Hf : sp_stop_on_fail sp = true -> s_pos i + 4 <= s_pos i1 <= s_size i).
  { intros Hf. unfold scan_stop in St. rewrite Hf in St. destruct (s_good i1); [|discriminate]. destruct (G1 eq_refl). lia. }
  destruct (k =? 0); [split; [exact F1|intros F; specialize (Hf F); lia]|].
  destruct (st_seek k i1 S1) as (S2 & Z2 & G2 & M2). split; [|intros F; specialize (Hf F); lia].
  split; [exact S2|]. split; [lia|]. intros G. destruct (G2 G) as [Gi P2]. destruct (G1 Gi) as (G0 & L). destruct (Hg G0).
  split; [assumption|lia].
Qed.

Lemma sfrom_scan i0 : forall n tmp j r j1, sfrom i0 j -> scan_loop sp n tmp j = Ok (r, j1) -> sfrom i0 j1.
Proof.
  intros n tmp j r j1 F H. destruct (scan_inv sp _ _ _ (s_round i0) n tmp j r j1 F H) as (S & Z & G).
  split; [exact S|]. split; [exact Z|]. intros G'. destruct (G G') as (A & B & _). split; [exact A|lia].
Qed.

Lemma st_scan : forall n tmp i r i', sstream i -> scan_loop sp n tmp i = Ok (r, i') ->
  sstream i' /\ s_size i' = s_size i /\
  (s_good i' = true -> s_good i = true /\ s_pos i + 4 <= s_pos i' /\ s_pos i' <= s_size i').
Proof using call HR.
  intros n tmp i r i' Hs H. exact (scan_inv sp _ _ _ (s_round i) n tmp i r i' (sfrom_refl i Hs) H).
Qed.

(* the search ends on EVERY stream of this flavour — open, failed, or closed under the worker's feet at any moment — provided
   it gives up on any failed stream: an iteration that goes on has read 4 bytes that were there and seeks back at most 3 *)
Lemma st_scan_no_spin : sp_stop_on_fail sp = true -> forall n tmp i, sstream i ->
  (Z.to_nat (s_size i - s_pos i) + 2 <= n)%nat -> scan_loop sp n tmp i <> Err ESpin.
Proof using call HR.
  intros Hf n tmp i Hs Hn. apply (scan_ends sp _ _ _ (s_round i) togo); [auto|apply sfrom_refl; exact Hs|unfold togo; lia].
Qed.

Theorem st_run_mono : forall p s l i s' i', seeks_ok cs p = true -> sstream i ->
  run_r cs call sp cap p s l i = Ok (s', i') ->
  sstream i' /\ s_size i' = s_size i /\ (s_good i' = true -> s_good i = true /\ s_pos i <= s_pos i').
Proof.
  intros p s l i s' i' Hs Hst. apply (run_r_inv cs call sp cap (fun off => 0 <= off) (sfrom i)); [| | |apply seeks_ok_fwd; exact Hs|apply sfrom_refl; exact Hst].
  - intros n j. apply sfrom_read.
  - intros off j. apply sfrom_seek.
  - intros j r j1. apply sfrom_scan.
Qed.

(* no read program hangs in the signature search on a stream of this flavour (any program: a seek that would leave the file fails) *)
Theorem st_run_no_spin : sp_stop_on_fail sp = true -> (forall tg m s, call tg m s <> Err ESpin) ->
  forall p s l i, sstream i -> run_r cs call sp cap p s l i <> Err ESpin.
Proof.
  intros Hf Hcall p s l i. apply (run_r_ends cs call sp cap (fun _ => True) sstream); auto using seeks_in_any.
  - intros n j S. pose proof (st_read n j S) as R. destruct (s_read n j). apply R.
  - intros off j _ S. apply st_seek. exact S.
  - intros j r j1 S H. eapply st_scan; eauto.
  - intros j S. apply st_scan_no_spin; [exact Hf|exact S|apply search_fuel; apply S].
Qed.

(* a program that begins like ObjectHeaderBase::read (search, 2+2+4+4 bytes), possibly after member assignments, and goes on
   seeking only forward: still good at the end means the 16 header bytes were there and were consumed *)
Fixpoint ohb_prefix (p : prog) : bool :=
  match p with
  | PAssign _ _ k => ohb_prefix k
  | PScan (PRead f1 (PRead f2 (PRead f3 (PRead f4 k)))) => wid cs f1 2 && wid cs f2 2 && wid cs f3 4 && wid cs f4 4 && seeks_ok cs k
  | _ => false
  end.

Lemma ohb_prefix_inv k : ohb_prefix (PScan k) = true -> exists f1 f2 f3 f4 k',
  k = PRead f1 (PRead f2 (PRead f3 (PRead f4 k'))) /\ wid cs f1 2 && wid cs f2 2 && wid cs f3 4 && wid cs f4 4 = true /\ seeks_ok cs k' = true.
Proof. intros H. four_reads k f1 f2 f3 f4. apply andb_prop in H. eauto 8. Qed.

Lemma ohb_shape_prefix p : ohb_shape cs p = true -> ohb_prefix p = true.
Proof.
  intros H. destruct (ohb_shape_inv cs p H) as (f1 & f2 & f3 & f4 & -> & W). cbn [ohb_prefix seeks_ok]. rewrite W. reflexivity.
Qed.

Lemma st_header : forall p s l i s' i', ohb_prefix p = true -> sstream i ->
  run_r cs call sp cap p s l i = Ok (s', i') ->
  sstream i' /\ s_size i' = s_size i /\
  (s_good i' = true -> s_good i = true /\ s_pos i + 16 <= s_pos i' /\ s_pos i + 16 <= s_size i).
Proof.
  induction p as [| e | | | f k IH | f k IH | f e k IH | f e k IH | f e k IH | e k IH | e k IH | f e k IH | x t e k IH | x e k IH | k IH | c a IHa b IHb];
    intros s l i s' i' Hs Hst H; try discriminate.
  - apply assign_inv in H. destruct H as [s1 H]. exact (IH _ _ _ _ _ Hs Hst H).
  - destruct (ohb_prefix_inv k Hs) as (f1 & f2 & f3 & f4 & k' & -> & W & Hk).
    apply search_inv in H. destruct H as (r & j0 & Es & H).
    apply (scan_inv sp _ _ _ (s_round i)) in Es; [|apply sfrom_refl; exact Hst].
    assert (Hl : forall c w j, sread c i j -> 0 < w -> sread (c + w) i (snd (s_read w j))).
    { intros c w j (S & Z & G) Hw. apply sread_link; auto. intros G'. destruct (G G') as (A & B & _). auto. }
    destruct (header_reads cs sp cap call _ Hl _ _ _ _ _ _ _ _ _ W Es H) as (s1 & j1 & (S1 & Z1 & G1) & E).
    destruct (st_run_mono _ _ _ _ _ _ Hk S1 E) as (A & B & C). split; [exact A|]. split; [lia|].
    intros G. destruct (C G) as [C1 C2]. destruct (G1 C1) as (D0 & D1 & D2). split; [exact D0|lia].
Qed.

End Sticky.

Section ContLoop.
Variable cs : classes.
Variable sp : scan_params.
Variable cap : Z.
Variables C_lc C_ohb F_otype F_method F_usize F_cfile : Z.
Variable inflate : list Z -> Z -> option (list Z).
Hypothesis HR : rules_ok sp = true.
Hypothesis Hstop : sp_stop_on_fail sp = true.
Hypothesis Hohb : ohb_prefix cs (prog_of cs C_ohb M_read) = true.
Hypothesis Hlc : ohb_prefix cs (prog_of cs C_lc M_read) = true.

Lemma dec_no_spin_s c s i : sstream i -> dec cs sp cap c s i <> Err ESpin.
Proof. intros Hs. apply st_run_no_spin; auto using callf_no_spin. Qed.

(* one iteration: it ends the loop, or the container's 16-byte base header lay inside the file and the loop goes on behind it *)
Lemma cont_iter fuel i acc usize : sstream i ->
  snd (cont_loop cs sp cap C_lc C_ohb F_otype F_method F_usize F_cfile inflate (S fuel) i acc usize) <> EndFuel \/
  exists i' acc' usize',
    cont_loop cs sp cap C_lc C_ohb F_otype F_method F_usize F_cfile inflate (S fuel) i acc usize =
    cont_loop cs sp cap C_lc C_ohb F_otype F_method F_usize F_cfile inflate fuel i' acc' usize' /\
    sstream i' /\ s_size i' = s_size i /\ s_pos i + 16 <= s_pos i' /\ s_pos i + 16 <= s_size i.
Proof.
  intros Hst. cbn [cont_loop].
  pose proof (dec_no_spin_s C_ohb (fresh cs C_ohb) i Hst) as N.
  destruct (dec cs sp cap C_ohb (fresh cs C_ohb) i) as [[h i1]|e] eqn:E1; [clear N|left; destruct e; cbn; congruence].
  destruct (s_good i1) eqn:G1; cbn [negb]; [|left; cbn; discriminate].
  destruct (st_header cs (callf cs C_ohb) sp cap HR _ _ _ _ _ _ Hohb Hst E1) as (T1 & Z1 & H1). destruct (H1 G1) as (G0 & P1 & Q1).
  (* if the seek back to the container's start fails, so does the read that follows *)
  destruct (st_seek (-16) i1 T1) as (T2 & Z2 & G2 & _). set (i2 := s_seek (-16) i1) in *.
  destruct (negb (geti h F_otype =? 10)); [left; cbn; discriminate|].
  pose proof (dec_no_spin_s C_lc (fresh cs C_lc) i2 T2) as N.
  destruct (dec cs sp cap C_lc (fresh cs C_lc) i2) as [[lc i3]|e] eqn:E3; [clear N|left; destruct e; cbn; congruence].
  destruct (s_good i3) eqn:G3; cbn [negb]; [|left; cbn; discriminate].
  destruct (st_header cs (callf cs C_lc) sp cap HR _ _ _ _ _ _ Hlc T2 E3) as (T3 & Z3 & H3). destruct (H3 G3) as (G2' & P3 & Q3).
  destruct (G2 G2') as (_ & P2).
  destruct (uncompress_lc cap F_method F_usize F_cfile inflate lc) as [out|e]; [|left; destruct e; cbn; discriminate].
  right. do 3 eexists. split; [reflexivity|]. split; [exact T3|]. lia.
Qed.

(* the inflating stage: every container that is accepted lies inside the file and moves the position on by at least its
   16-byte base header, so the loop ends within |file| / 16 + 2 iterations — the fuel read_session gives it.  This holds on
   every stream of the fstream flavour: also one that File::close closes at an arbitrary moment (a failed seek back to the
   container's start makes the next header read fail, which ends the stage) *)
Theorem cont_loop_never_out_of_fuel : forall fuel i acc usize, sstream i ->
  (Z.to_nat (Z.max 0 (s_size i - s_pos i) / 16) + 2 <= fuel)%nat ->
  snd (cont_loop cs sp cap C_lc C_ohb F_otype F_method F_usize F_cfile inflate fuel i acc usize) <> EndFuel.
Proof.
  induction fuel as [|fuel IH]; intros i acc usize Hst Hf; [lia|].
  destruct (cont_iter fuel i acc usize Hst) as [H|(i' & acc' & usize' & -> & T & Z & L)]; [exact H|].
  (* 16 bytes less remain, one sixteenth less *)
  apply IH; [exact T|]. Z.div_mod_to_equations. lia.
Qed.

End ContLoop.

Section Session.
Variables (cs : classes) (sp : scan_params) (cap : Z) (factory : list (Z * Z)).
Variables C_stats C_lc C_ohb F_osz F_otype F_method F_usize F_cfile S_statsize : Z.
Variable inflate : list Z -> Z -> option (list Z).
Hypothesis HR : rules_ok sp = true.
Hypothesis Hsig : sp_sig sp <> 0.
Hypothesis Hstop : sp_stop_on_fail sp = true.
Hypothesis Hohb : ohb_shape cs (prog_of cs C_ohb M_read) = true.
Hypothesis Hcls : forall code, lookup_factory factory code <> 0 -> class_ok cs (lookup_factory factory code) = true.
Hypothesis Hlc : ohb_prefix cs (prog_of cs C_lc M_read) = true.
Hypothesis Hstats : seeks_ok cs (prog_of cs C_stats M_read) = true.

Local Notation session := (read_session_on cs sp cap factory C_stats C_lc C_ohb F_osz F_otype F_method F_usize F_cfile S_statsize inflate).

(* neither stage of the read session runs out of fuel: for EVERY file content, whatever zlib answers and wherever a concurrent
   File::close() closes the compressed file (s_open i0 arbitrary) *)
Theorem session_ends (i0 : istream) (n : nat) : sstream i0 -> s_size i0 = Z.of_nat n ->
  r_cend (session i0 n) <> EndFuel /\ r_oend (session i0 n) <> EndFuel.
Proof.
  intros Hst Hsz. split.
  - rewrite session_cend. destruct (dec cs sp cap C_stats (fresh cs C_stats) i0) as [[st i1]|e] eqn:E0; [|discriminate].
    destruct (st_run_mono cs (callf cs C_stats) sp cap HR _ _ _ _ _ _ Hstats Hst E0) as (T1 & Z1 & _).
    apply cont_loop_never_out_of_fuel; auto using ohb_shape_prefix.
    (* wherever the header reader left the stream, its position is not negative: at most n bytes are left *)
    destruct T1 as (_ & _ & Hpos). rewrite Z1, Hsz. pose proof (Nat2Z.inj_div n 16). Z.div_mod_to_equations. lia.
  - unfold read_session_on. destruct (dec cs sp cap C_stats (fresh cs C_stats) i0) as [[st i1]|e]; [|discriminate].
    destruct (cont_loop _ _ _ _ _ _ _ _ _ _ _ _ _ _) as [[conts usize] cend].
    pose proof (parser_ends cs sp cap factory C_ohb F_osz F_otype HR Hsig Hohb Hcls (concat conts)) as HP.
    destruct (obj_loop _ _ _ _ _ _ _ _ _ _ _) as [[objs count] oend]. exact HP.
Qed.
End Session.
