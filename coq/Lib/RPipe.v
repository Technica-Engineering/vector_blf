(* RPipe.v — the read session as three threads over the in-memory stream and the object queue:
     W2 (compressedFileReadThread): take the next container from the file, append it to the stream
        (UncompressedFile::write(logContainer) waits for tellp - tellg < bufferSize or abort); at the end of the
        file — or when close() cleared its running flag — declare the end of the stream
     W1 (uncompressedFileReadThread): a reader program: read n bytes (waits until they are there, the request
        crosses the declared end, or abort), seek, deliver an object to the queue (waits while it is at capacity,
        unless aborted); at its end declare the end of the queue
     A  (application): read() k times, then close() = flags; U.abort; Q.abort; join W2; join W1; the
        queue's destructor deletes what is still queued
   The reader program is an arbitrary finite tree (it may depend on the bytes read in any way).
   Theorems: no reachable state is stuck (C06) — read(n) raises the buffer size to a request larger than it
   before it waits, so the writer can always supply what the reader waits for; the data held is bounded (C12);
   every object is owned by exactly one party (C11/C13). *)
From Coq Require Import List ZArith Bool Lia.
From VB Require Import Base BaseFacts.
Import ListNotations.
Local Open Scope Z_scope.

Inductive rprog :=
| RRead (n : Z) (k : list Z -> bool -> rprog)     (* is.read(.., n): continues with the bytes and good() *)
| RSeek (off : Z) (k : rprog)                     (* is.seekg(off, cur) *)
| RDeliver (o : Z) (k : rprog)                    (* m_readWriteQueue.write(obj) *)
| RDrop (k : rprog)                               (* m_uncompressedFile.dropOldData() *)
| REnd.

Inductive w2pc := W2Next (rest : list (list Z)) | W2Write (c : list Z) (rest : list (list Z)) | W2SetEof | W2Done.
Inductive w1pc := W1Run (p : rprog) | W1Wait (n : Z) (k : list Z -> bool -> rprog) | W1SetEof | W1Done.
Inductive apc :=
| ARead (k : nat)                  (* k more calls of read() before close() *)
| AClose (i : nat)                 (* step i of close(): 0 flag2:=false+file.close, 1 flag1:=false, 2 U.abort, 3 Q.abort, 4 join W2, 5 join W1, 6 ~ObjectQueue *)
| ADone.

Record rs := {
  a_pc : apc; got : list (option Z);          (* results of read(): object ids / nullptr *)
  q : list Z; q_eof : bool; q_abort : bool;
  w1 : w1pc;
  udata : list Z; tg : Z; u_eof : bool; u_abort : bool;
  w2 : w2pc; run2 : bool;
  freed : list Z;                              (* objects deleted by the library *)
  hw : Z;                                      (* ghost: the furthest get position reached *)
  dropat : Z;                                  (* ghost: get position at the last dropOldData *)
  made : list Z;                               (* ghost: objects the reader has handed to the queue *)
  bufsz : Z                                     (* m_bufferSize of the stream: raised by a read request larger than it *)
}.

Section Read.
Variables cap buf : Z.

Definition init (conts : list (list Z)) (p : rprog) (k : nat) : rs :=
  {| a_pc := ARead k; got := []; q := []; q_eof := false; q_abort := false; w1 := W1Run p;
     udata := []; tg := 0; u_eof := false; u_abort := false; w2 := W2Next conts; run2 := true; freed := []; hw := 0; dropat := 0; made := []; bufsz := buf |}.

Definition fill (s : rs) : Z := zlen (udata s) - tg s.

Definition upd_a (s : rs) p g := {| a_pc := p; got := g; q := q s; q_eof := q_eof s; q_abort := q_abort s; w1 := w1 s;
  udata := udata s; tg := tg s; u_eof := u_eof s; u_abort := u_abort s; w2 := w2 s; run2 := run2 s; freed := freed s; hw := hw s; dropat := dropat s; made := made s; bufsz := bufsz s |}.

Definition step_A (s : rs) : option rs :=
  match a_pc s with
  | ARead (S k) =>
      (* ObjectQueue::read: waits while the queue is empty, its end not declared and not aborted *)
      match q s with
      | o :: r => Some {| a_pc := ARead k; got := got s ++ [Some o]; q := r; q_eof := q_eof s; q_abort := q_abort s; w1 := w1 s;
                          udata := udata s; tg := tg s; u_eof := u_eof s; u_abort := u_abort s; w2 := w2 s; run2 := run2 s; freed := freed s; hw := hw s; dropat := dropat s; made := made s; bufsz := bufsz s |}
      | [] => if q_eof s || q_abort s then Some (upd_a s (ARead k) (got s ++ [None])) else None
      end
  | ARead O => Some (upd_a s (AClose 0) (got s))
  | AClose 0 => Some {| a_pc := AClose 1; got := got s; q := q s; q_eof := q_eof s; q_abort := q_abort s; w1 := w1 s;
                        udata := udata s; tg := tg s; u_eof := u_eof s; u_abort := u_abort s; w2 := w2 s; run2 := false; freed := freed s; hw := hw s; dropat := dropat s; made := made s; bufsz := bufsz s |}
  | AClose 1 => Some (upd_a s (AClose 2) (got s))
  | AClose 2 => Some {| a_pc := AClose 3; got := got s; q := q s; q_eof := q_eof s; q_abort := q_abort s; w1 := w1 s;
                        udata := udata s; tg := tg s; u_eof := u_eof s; u_abort := true; w2 := w2 s; run2 := run2 s; freed := freed s; hw := hw s; dropat := dropat s; made := made s; bufsz := bufsz s |}
  | AClose 3 => Some {| a_pc := AClose 4; got := got s; q := q s; q_eof := q_eof s; q_abort := true; w1 := w1 s;
                        udata := udata s; tg := tg s; u_eof := u_eof s; u_abort := u_abort s; w2 := w2 s; run2 := run2 s; freed := freed s; hw := hw s; dropat := dropat s; made := made s; bufsz := bufsz s |}
  | AClose 4 => match w2 s with W2Done => Some (upd_a s (AClose 5) (got s)) | _ => None end
  | AClose 5 => match w1 s with W1Done => Some (upd_a s (AClose 6) (got s)) | _ => None end
  | AClose 6 => Some {| a_pc := ADone; got := got s; q := []; q_eof := q_eof s; q_abort := q_abort s; w1 := w1 s;
                        udata := udata s; tg := tg s; u_eof := u_eof s; u_abort := u_abort s; w2 := w2 s; run2 := run2 s; freed := freed s ++ q s; hw := hw s; dropat := dropat s; made := made s; bufsz := bufsz s |}
  | AClose _ => None
  | ADone => None
  end.

Definition upd_w1 (s : rs) p := {| a_pc := a_pc s; got := got s; q := q s; q_eof := q_eof s; q_abort := q_abort s; w1 := p;
  udata := udata s; tg := tg s; u_eof := u_eof s; u_abort := u_abort s; w2 := w2 s; run2 := run2 s; freed := freed s; hw := hw s; dropat := dropat s; made := made s; bufsz := bufsz s |}.

Definition step_W1 (s : rs) : option rs :=
  match w1 s with
  | W1Run (RRead n k) =>
      (* UncompressedFile::read, on entry: a request larger than the buffer raises the buffer size (and notifies the writer) *)
      Some {| a_pc := a_pc s; got := got s; q := q s; q_eof := q_eof s; q_abort := q_abort s; w1 := W1Wait n k;
              udata := udata s; tg := tg s; u_eof := u_eof s; u_abort := u_abort s; w2 := w2 s; run2 := run2 s; freed := freed s;
              hw := hw s; dropat := dropat s; made := made s; bufsz := Z.max (bufsz s) n |}
  | W1Wait n k =>
      (* ... then it waits until n bytes are there, the request crosses the declared end, or abort *)
      if u_abort s || (n + tg s <=? zlen (udata s)) || u_eof s then
        let beyond := u_eof s && (zlen (udata s) <? n + tg s) in
        let bytes := ztake n (zdrop (tg s) (udata s)) in
        Some {| a_pc := a_pc s; got := got s; q := q s; q_eof := q_eof s; q_abort := q_abort s; w1 := W1Run (k bytes (negb beyond));
                udata := udata s; tg := tg s + zlen bytes; u_eof := u_eof s; u_abort := u_abort s; w2 := w2 s; run2 := run2 s; freed := freed s;
                hw := Z.max (hw s) (tg s + zlen bytes); dropat := dropat s; made := made s; bufsz := bufsz s |}
      else None
  | W1Run (RSeek off k) =>
      Some {| a_pc := a_pc s; got := got s; q := q s; q_eof := q_eof s; q_abort := q_abort s; w1 := W1Run k;
              udata := udata s; tg := if u_eof s then Z.min (tg s + off) (zlen (udata s)) else tg s + off;
              u_eof := u_eof s; u_abort := u_abort s; w2 := w2 s; run2 := run2 s; freed := freed s;
              hw := Z.max (hw s) (if u_eof s then Z.min (tg s + off) (zlen (udata s)) else tg s + off); dropat := dropat s; made := made s; bufsz := bufsz s |}
  | W1Run (RDeliver o k) =>
      (* ObjectQueue::write: waits while the queue is at its capacity, unless aborted *)
      if q_abort s || (zlen (q s) <? cap) then
        Some {| a_pc := a_pc s; got := got s; q := q s ++ [o]; q_eof := q_eof s; q_abort := q_abort s; w1 := W1Run k;
                udata := udata s; tg := tg s; u_eof := u_eof s; u_abort := u_abort s; w2 := w2 s; run2 := run2 s; freed := freed s;
                hw := hw s; dropat := dropat s; made := made s ++ [o]; bufsz := bufsz s |}
      else None
  | W1Run (RDrop k) =>
      Some {| a_pc := a_pc s; got := got s; q := q s; q_eof := q_eof s; q_abort := q_abort s; w1 := W1Run k;
              udata := udata s; tg := tg s; u_eof := u_eof s; u_abort := u_abort s; w2 := w2 s; run2 := run2 s; freed := freed s;
              hw := hw s; dropat := Z.max (dropat s) (Z.min (tg s) (zlen (udata s))); made := made s; bufsz := bufsz s |}
  | W1Run REnd => Some (upd_w1 s W1SetEof)
  | W1SetEof => Some {| a_pc := a_pc s; got := got s; q := q s; q_eof := true; q_abort := q_abort s; w1 := W1Done;
                        udata := udata s; tg := tg s; u_eof := u_eof s; u_abort := u_abort s; w2 := w2 s; run2 := run2 s; freed := freed s; hw := hw s; dropat := dropat s; made := made s; bufsz := bufsz s |}
  | W1Done => None
  end.

Definition upd_w2 (s : rs) p := {| a_pc := a_pc s; got := got s; q := q s; q_eof := q_eof s; q_abort := q_abort s; w1 := w1 s;
  udata := udata s; tg := tg s; u_eof := u_eof s; u_abort := u_abort s; w2 := p; run2 := run2 s; freed := freed s; hw := hw s; dropat := dropat s; made := made s; bufsz := bufsz s |}.

Definition step_W2 (s : rs) : option rs :=
  match w2 s with
  | W2Next rest =>
      match rest with
      | c :: r => if run2 s then Some (upd_w2 s (W2Write c r)) else Some (upd_w2 s W2SetEof)
      | [] => Some (upd_w2 s W2SetEof)
      end
  | W2Write c r =>
      (* UncompressedFile::write(logContainer): waits for tellp - tellg < bufferSize or abort *)
      if u_abort s || (fill s <? bufsz s) then
        Some {| a_pc := a_pc s; got := got s; q := q s; q_eof := q_eof s; q_abort := q_abort s; w1 := w1 s;
                udata := udata s ++ c; tg := tg s; u_eof := u_eof s; u_abort := u_abort s; w2 := W2Next r; run2 := run2 s; freed := freed s; hw := hw s; dropat := dropat s; made := made s; bufsz := bufsz s |}
      else None
  | W2SetEof => Some {| a_pc := a_pc s; got := got s; q := q s; q_eof := q_eof s; q_abort := q_abort s; w1 := w1 s;
                        udata := udata s; tg := tg s; u_eof := true; u_abort := u_abort s; w2 := W2Done; run2 := run2 s; freed := freed s; hw := hw s; dropat := dropat s; made := made s; bufsz := bufsz s |}
  | W2Done => None
  end.

Inductive thread := TA | TW1 | TW2.
Definition step (t : thread) (s : rs) : option rs :=
  match t with TA => step_A s | TW1 => step_W1 s | TW2 => step_W2 s end.

Inductive reach (c : list (list Z)) (p : rprog) (k : nat) : rs -> Prop :=
| reach_init : reach c p k (init c p k)
| reach_step : forall s t s', reach c p k s -> step t s = Some s' -> reach c p k s'.

Definition finished (s : rs) : Prop := a_pc s = ADone /\ w1 s = W1Done /\ w2 s = W2Done.

Definition close_ge (n : nat) (p : apc) : bool :=
  match p with AClose i => Nat.leb n i | ADone => true | ARead _ => false end.

(* in order: a worker 1 that is done has declared the end of the queue; worker 2 is done exactly when the end of the
   stream is declared (two conjuncts); from step 3 of close() on the stream is aborted, from step 4 on the queue; past the
   join of worker 2 (step 5) worker 2 is done, past that of worker 1 (step 6) worker 1 is; close() has the steps 0..6;
   a reader waiting in read(n) has n <= bufferSize: read() raises the buffer size to its request before it waits, the
   repair of the deadlock in which a request above the buffer size waited for bytes the writer had no room for *)
Definition Inv (s : rs) : Prop :=
  (w1 s = W1Done -> q_eof s = true) /\
  (w2 s = W2Done -> u_eof s = true) /\
  (u_eof s = true -> w2 s = W2Done) /\
  (close_ge 3 (a_pc s) = true -> u_abort s = true) /\
  (close_ge 4 (a_pc s) = true -> q_abort s = true) /\
  (close_ge 5 (a_pc s) = true -> w2 s = W2Done) /\
  (close_ge 6 (a_pc s) = true -> w1 s = W1Done) /\
  (forall i, a_pc s = AClose i -> (i <= 6)%nat) /\
  (forall n k, w1 s = W1Wait n k -> n <= bufsz s).

(* One constructor per branch of step_A, step_W1, step_W2, the wait predicates as hypotheses.  The fields of rs are
   a_pc got q q_eof q_abort w1 udata tg u_eof u_abort w2 run2 freed hw dropat made bufsz. *)
Inductive Step : thread -> rs -> rs -> Prop :=
| A_last g qs qe qa w ud pos ue ua v r2 fr h dr m b :
    Step TA (Build_rs (ARead 0) g qs qe qa w ud pos ue ua v r2 fr h dr m b)
            (Build_rs (AClose 0) g qs qe qa w ud pos ue ua v r2 fr h dr m b)
| A_take k g o qs qe qa w ud pos ue ua v r2 fr h dr m b :
    Step TA (Build_rs (ARead (S k)) g (o :: qs) qe qa w ud pos ue ua v r2 fr h dr m b)
            (Build_rs (ARead k) (g ++ [Some o]) qs qe qa w ud pos ue ua v r2 fr h dr m b)
| A_none k g qe qa w ud pos ue ua v r2 fr h dr m b : qe = true \/ qa = true ->
    Step TA (Build_rs (ARead (S k)) g [] qe qa w ud pos ue ua v r2 fr h dr m b)
            (Build_rs (ARead k) (g ++ [None]) [] qe qa w ud pos ue ua v r2 fr h dr m b)
| A_close0 g qs qe qa w ud pos ue ua v r2 fr h dr m b :
    Step TA (Build_rs (AClose 0) g qs qe qa w ud pos ue ua v r2 fr h dr m b)
            (Build_rs (AClose 1) g qs qe qa w ud pos ue ua v false fr h dr m b)
| A_close1 g qs qe qa w ud pos ue ua v r2 fr h dr m b :
    Step TA (Build_rs (AClose 1) g qs qe qa w ud pos ue ua v r2 fr h dr m b)
            (Build_rs (AClose 2) g qs qe qa w ud pos ue ua v r2 fr h dr m b)
| A_abort_u g qs qe qa w ud pos ue ua v r2 fr h dr m b :
    Step TA (Build_rs (AClose 2) g qs qe qa w ud pos ue ua v r2 fr h dr m b)
            (Build_rs (AClose 3) g qs qe qa w ud pos ue true v r2 fr h dr m b)
| A_abort_q g qs qe qa w ud pos ue ua v r2 fr h dr m b :
    Step TA (Build_rs (AClose 3) g qs qe qa w ud pos ue ua v r2 fr h dr m b)
            (Build_rs (AClose 4) g qs qe true w ud pos ue ua v r2 fr h dr m b)
| A_join2 g qs qe qa w ud pos ue ua r2 fr h dr m b :
    Step TA (Build_rs (AClose 4) g qs qe qa w ud pos ue ua W2Done r2 fr h dr m b)
            (Build_rs (AClose 5) g qs qe qa w ud pos ue ua W2Done r2 fr h dr m b)
| A_join1 g qs qe qa ud pos ue ua v r2 fr h dr m b :
    Step TA (Build_rs (AClose 5) g qs qe qa W1Done ud pos ue ua v r2 fr h dr m b)
            (Build_rs (AClose 6) g qs qe qa W1Done ud pos ue ua v r2 fr h dr m b)
| A_destroy g qs qe qa w ud pos ue ua v r2 fr h dr m b :
    Step TA (Build_rs (AClose 6) g qs qe qa w ud pos ue ua v r2 fr h dr m b)
            (Build_rs ADone g [] qe qa w ud pos ue ua v r2 (fr ++ qs) h dr m b)
| W1_request a g qs qe qa n k ud pos ue ua v r2 fr h dr m b :
    Step TW1 (Build_rs a g qs qe qa (W1Run (RRead n k)) ud pos ue ua v r2 fr h dr m b)
             (Build_rs a g qs qe qa (W1Wait n k) ud pos ue ua v r2 fr h dr m (Z.max b n))
| W1_read a g qs qe qa n k ud pos ue ua v r2 fr h dr m b : ua = true \/ n + pos <= zlen ud \/ ue = true ->
    let bytes := ztake n (zdrop pos ud) in
    Step TW1 (Build_rs a g qs qe qa (W1Wait n k) ud pos ue ua v r2 fr h dr m b)
             (Build_rs a g qs qe qa (W1Run (k bytes (negb (ue && (zlen ud <? n + pos))))) ud (pos + zlen bytes) ue ua v r2 fr
                       (Z.max h (pos + zlen bytes)) dr m b)
| W1_seek a g qs qe qa off k ud pos (ue : bool) ua v r2 fr h dr m b :
    let pos' := if ue then Z.min (pos + off) (zlen ud) else pos + off in
    Step TW1 (Build_rs a g qs qe qa (W1Run (RSeek off k)) ud pos ue ua v r2 fr h dr m b)
             (Build_rs a g qs qe qa (W1Run k) ud pos' ue ua v r2 fr (Z.max h pos') dr m b)
| W1_deliver a g qs qe qa o k ud pos ue ua v r2 fr h dr m b : qa = true \/ zlen qs < cap ->
    Step TW1 (Build_rs a g qs qe qa (W1Run (RDeliver o k)) ud pos ue ua v r2 fr h dr m b)
             (Build_rs a g (qs ++ [o]) qe qa (W1Run k) ud pos ue ua v r2 fr h dr (m ++ [o]) b)
| W1_drop a g qs qe qa k ud pos ue ua v r2 fr h dr m b :
    Step TW1 (Build_rs a g qs qe qa (W1Run (RDrop k)) ud pos ue ua v r2 fr h dr m b)
             (Build_rs a g qs qe qa (W1Run k) ud pos ue ua v r2 fr h (Z.max dr (Z.min pos (zlen ud))) m b)
| W1_end a g qs qe qa ud pos ue ua v r2 fr h dr m b :
    Step TW1 (Build_rs a g qs qe qa (W1Run REnd) ud pos ue ua v r2 fr h dr m b)
             (Build_rs a g qs qe qa W1SetEof ud pos ue ua v r2 fr h dr m b)
| W1_eof a g qs qe qa ud pos ue ua v r2 fr h dr m b :
    Step TW1 (Build_rs a g qs qe qa W1SetEof ud pos ue ua v r2 fr h dr m b)
             (Build_rs a g qs true qa W1Done ud pos ue ua v r2 fr h dr m b)
| W2_none a g qs qe qa w ud pos ue ua r2 fr h dr m b :
    Step TW2 (Build_rs a g qs qe qa w ud pos ue ua (W2Next []) r2 fr h dr m b)
             (Build_rs a g qs qe qa w ud pos ue ua W2SetEof r2 fr h dr m b)
| W2_next a g qs qe qa w ud pos ue ua c r fr h dr m b :
    Step TW2 (Build_rs a g qs qe qa w ud pos ue ua (W2Next (c :: r)) true fr h dr m b)
             (Build_rs a g qs qe qa w ud pos ue ua (W2Write c r) true fr h dr m b)
| W2_stopped a g qs qe qa w ud pos ue ua c r fr h dr m b :
    Step TW2 (Build_rs a g qs qe qa w ud pos ue ua (W2Next (c :: r)) false fr h dr m b)
             (Build_rs a g qs qe qa w ud pos ue ua W2SetEof false fr h dr m b)
| W2_write a g qs qe qa w ud pos ue ua c r r2 fr h dr m b : ua = true \/ zlen ud - pos < b ->
    Step TW2 (Build_rs a g qs qe qa w ud pos ue ua (W2Write c r) r2 fr h dr m b)
             (Build_rs a g qs qe qa w (ud ++ c) pos ue ua (W2Next r) r2 fr h dr m b)
| W2_eof a g qs qe qa w ud pos ue ua r2 fr h dr m b :
    Step TW2 (Build_rs a g qs qe qa w ud pos ue ua W2SetEof r2 fr h dr m b)
             (Build_rs a g qs qe qa w ud pos true ua W2Done r2 fr h dr m b).

(* closes a branch of step_A/W1/W2 that has no further test: it returns nothing, or the target of a constructor *)
Ltac fires := first [discriminate | intros [= <-]; constructor].

(* a wait predicate as the model has it (boolean) and as Step has it *)
Ltac as_prop G := rewrite ?orb_true_iff, ?Z.leb_le, ?Z.ltb_lt in G.

Lemma step_Step t s s' : step t s = Some s' <-> Step t s s'.
Proof.
  split.
  - destruct s as [a g qs qe qa w ud pos ue ua v r2 fr h dr m b], t;
      unfold step, step_A, step_W1, step_W2, upd_a, upd_w1, upd_w2, fill; cbn.
    + destruct a as [[|k]|[|[|[|[|[|[|[|i]]]]]]]|]; try fires.
      * destruct qs; [destruct (_ || _) eqn:G|]; fires. as_prop G. exact G.
      * destruct v; fires.
      * destruct w; fires.
    + destruct w as [[n k|off k|o k|k|]|n k| |]; try fires.
      * destruct (_ || _) eqn:G; fires. as_prop G. exact G.
      * destruct (_ || _) eqn:G; fires. as_prop G. tauto.
    + destruct v as [[|c r]|c r| |]; try fires.
      * destruct r2; fires.
      * destruct (_ || _) eqn:G; fires. as_prop G. exact G.
  - destruct 1; try reflexivity; unfold step, step_A, step_W1, step_W2, fill; cbn;
      destruct (_ || _) eqn:G; try reflexivity; rewrite <- not_true_iff_false in G; as_prop G; tauto.
Qed.

Lemma inv_init c p k : Inv (init c p k).
Proof. unfold Inv; cbn. firstorder congruence. Qed.

(* The conjuncts are invariants each on its own; by cases on the transition.  The first seven are propositional, the
   bounds on the counter of close() and on the request waited for follow by injection. *)
Lemma inv_step t s s' : Step t s s' -> Inv s -> Inv s'.
Proof.
  intros H (I1 & I2 & I3 & I4 & I5 & I6 & I7 & I8 & I9). unfold Inv. repeat apply conj.
  1-7: [> clear - H I1|clear - H I2|clear - H I3|clear - H I4|clear - H I5|clear - H I6|clear - H I7];
    destruct H; cbn in *; try assumption; firstorder congruence.
  - clear - H I8. destruct H; cbn in *; try assumption; intros ? E; inversion E; lia.
  - clear - H I9. destruct H; cbn in *; try assumption; intros ? ? E; inversion E; subst; lia.
Qed.

Lemma reach_Step_ind c p k (P : rs -> Prop) :
  P (init c p k) -> (forall t s s', reach c p k s -> P s -> Step t s s' -> P s') -> forall s, reach c p k s -> P s.
Proof. intros P0 PS. induction 1; [exact P0|eapply PS; [| |apply step_Step]; eassumption]. Qed.

Lemma inv_reach c p k s : reach c p k s -> Inv s.
Proof. induction 1 using reach_Step_ind; [apply inv_init|eapply inv_step; eassumption]. Qed.

Lemma inv_eof_done s : Inv s -> u_eof s = true -> w2 s = W2Done.
Proof. intros (_ & _ & I & _). exact I. Qed.

Lemma inv_joined1 s : Inv s -> close_ge 6 (a_pc s) = true -> w1 s = W1Done.
Proof. intros (_ & _ & _ & _ & _ & _ & I & _). exact I. Qed.

Lemma Step_moves t s s' : Step t s s' -> exists t s', step t s = Some s'.
Proof. intros H. exists t, s'. apply step_Step, H. Qed.

Lemma W2_moves s : w2 s <> W2Done -> u_abort s = true \/ fill s < bufsz s -> exists t s', step t s = Some s'.
Proof.
  destruct s as [a g qs qe qa w ud pos ue ua v r2 fr h dr m b]. unfold fill. cbn. intros N G.
  destruct v as [[|c r]|c r| |]; [|destruct r2| | |contradiction]; eapply Step_moves; constructor; exact G.
Qed.

(* worker 1, when the queue does not keep it waiting, moves — or it waits in read(n) for bytes that worker 2 can write:
   fewer than n are there, n <= buffer size (raised on entry), and the end is not declared, so worker 2 is not done *)
Lemma W1_moves s : Inv s -> w1 s <> W1Done -> q_abort s = true \/ zlen (q s) < cap -> exists t s', step t s = Some s'.
Proof.
  destruct s as [a g qs qe qa w ud pos ue ua v r2 fr h dr m b]. unfold Inv. cbn. intros (_ & I2 & _ & _ & _ & _ & _ & _ & I9) N G.
  destruct w as [[n k|off k|o k|k|]|n k| |]; [eapply Step_moves; constructor; exact G..| |eapply Step_moves, W1_eof|contradiction].
  destruct (Z.le_gt_cases (n + pos) (zlen ud)); [eapply Step_moves, W1_read; auto|].
  destruct ue; [eapply Step_moves, W1_read; auto|].
  apply W2_moves; unfold fill; cbn; [intros C; discriminate (I2 C)|]. specialize (I9 n k eq_refl). lia.
Qed.

Hypothesis Hcap : 1 <= cap.

(* C06 (read).  Stated for every state that satisfies Inv, hence for every reachable one (inv_reach) *)
Theorem stuck_free : forall s, Inv s -> ~ finished s -> exists t s', step t s = Some s'.
Proof using cap buf Hcap.   (* buf is listed on purpose: the closed statement is `forall cap buf, 1 <= cap -> ...`, its second argument unused *)
  (* from the consuming end upstream: the application waits for worker 1 (W1_moves), which waits for worker 2 (W2_moves) *)
  intros s I NF. pose proof I as (I1 & _ & _ & I4 & I5 & I6 & I7 & I8 & _).
  destruct s as [a g qs qe qa w ud pos ue ua v r2 fr h dr m b]. unfold finished in NF. cbn in *.
  destruct a as [[|j]|i|].
  - eapply Step_moves, A_last.
  - (* read() returns unless the queue is empty and its end not declared: then worker 1 is not done, and the queue has room for it *)
    destruct qs as [|o qs]; [|eapply Step_moves, A_take].
    destruct qe; [eapply Step_moves, A_none; auto|].
    apply W1_moves; cbn; [exact I|intros C; discriminate (I1 C)|lia].
  - (* close(), steps as listed at AClose: only the two joins can wait *)
    specialize (I8 i eq_refl).
    destruct i as [|[|[|[|[|[|[|i]]]]]]]; try lia; cbn in *; try (eapply Step_moves; constructor; fail).
    + (* join worker 2: the stream is aborted *)
      destruct v as [r|c r| |]; try (apply W2_moves; cbn; [discriminate|auto]). eapply Step_moves, A_join2.
    + (* join worker 1: the queue is aborted *)
      destruct w as [p|n k| |]; try (apply W1_moves; cbn; [exact I|discriminate|auto]). eapply Step_moves, A_join1.
  - (* ADone: past both joins, so both workers are done *)
    exfalso. apply NF. exact (conj eq_refl (conj (I7 eq_refl) (I6 eq_refl))).
Qed.

End Read.

(* what the workers have still to do: worker 1 the rest of its program (a read it waits in is that read), worker 2 the
   containers not yet written *)
Definition rest1 (w : w1pc) : rprog := match w with W1Run p => p | W1Wait n k => RRead n k | W1SetEof | W1Done => REnd end.
Definition rest2 (v : w2pc) : list (list Z) := match v with W2Next r => r | W2Write c r => c :: r | W2SetEof | W2Done => [] end.

(* reduces these two and the projections of a state written out, and nothing else (cbn alone also unfolds zlen of a cons) *)
Ltac fields := cbn [a_pc got q q_eof q_abort w1 udata tg u_eof u_abort w2 run2 freed hw dropat made bufsz rest1 rest2] in *.

Section ReadData.
Variables cap buf : Z.
Notation Step := (Step cap).
Notation reach := (reach cap buf).

(* C12 (read): the data held is bounded, independent of the length of the file.
   M bounds the size of a single container, R every single read request of the reader.
   hw - dropat is what the reader has consumed since it last called dropOldData.  Not a theorem: how much UncompressedFile
   keeps before dropat (C15_drop_frame says which containers dropOldData removes, in terms of the container list, which
   this model does not have). *)
Inductive req_bound (R : Z) : rprog -> Prop :=
| rb_read : forall n k, n <= R -> (forall b g, req_bound R (k b g)) -> req_bound R (RRead n k)
| rb_seek : forall off k, req_bound R k -> req_bound R (RSeek off k)
| rb_deliver : forall o k, req_bound R k -> req_bound R (RDeliver o k)
| rb_drop : forall k, req_bound R k -> req_bound R (RDrop k)
| rb_end : req_bound R REnd.

Definition BoundR (M R : Z) (s : rs) : Prop :=
  tg s <= hw s /\ dropat s <= hw s /\
  (u_abort s = false -> zlen (udata s) - hw s <= Z.max 0 (Z.max buf R - 1) + M) /\
  (q_abort s = false -> zlen (q s) <= Z.max cap 0) /\
  Forall (fun c => zlen c <= M) (rest2 (w2 s)) /\
  buf <= bufsz s <= Z.max buf R /\ req_bound R (rest1 (w1 s)).

Theorem read_bounded : forall M R c p k s, 0 <= M -> Forall (fun x => zlen x <= M) c -> req_bound R p -> reach c p k s -> BoundR M R s.
Proof.
  intros M R c p k s HM Hc HR. revert s. apply reach_Step_ind.
  - unfold BoundR. cbn. repeat split; auto; lia.
  - (* each conjunct in turn, from those it rests on *)
    intros t s s' _ (B1 & B2 & B3 & B4 & B5 & [B6 B6'] & B7) H. unfold BoundR. repeat apply conj.
    + clear - H B1. destruct H; fields; try assumption; lia.
    + clear - H B1 B2. destruct H; fields; try assumption; lia.
    + (* the stream: only write(container) adds bytes, and it waited for fill < bufsz <= max buf R *)
      clear - H B1 B3 B5 B6'. destruct H; fields; try assumption; intros A; try discriminate A; specialize (B3 A); try lia.
      destruct H as [H|H]; [congruence|]. apply Forall_cons_iff in B5. rewrite zlen_app. lia.
    + (* the queue: only write(obj) adds an object, and it waited for room *)
      clear - H B4. destruct H; fields; try assumption; intros A; try discriminate A; specialize (B4 A).
      * rewrite zlen_cons in B4. lia.
      * cbn. lia.
      * destruct H as [H|H]; [congruence|]. rewrite zlen_app. cbn. lia.
    + clear - H B5. destruct H; fields; try assumption; try constructor. apply Forall_cons_iff in B5. tauto.
    + clear - H B6. destruct H; fields; try assumption; lia.
    + (* bufsz changes only at W1_request, to max b n, and n <= R by req_bound *)
      clear - H B6' B7. destruct H; fields; try assumption. inversion B7. lia.
    + clear - H B7. destruct H; fields; try assumption; try constructor; inversion B7; auto.
Qed.

Fixpoint somes (l : list (option Z)) : list Z :=
  match l with [] => [] | Some x :: r => x :: somes r | None :: r => somes r end.
Lemma somes_app a b : somes (a ++ b) = somes a ++ somes b.
Proof. induction a as [|[x|] a IH]; cbn; [reflexivity|f_equal; exact IH|exact IH]. Qed.

(* C11 / C13 (read): the objects the reader has handed over are, in order: those returned to the application, those
   still queued, those deleted by the queue's destructor — each exactly once; the destructor runs last *)
Definition Owned (s : rs) : Prop :=
  made s = somes (got s) ++ q s ++ freed s /\
  match a_pc s with ADone => q s = [] | _ => freed s = [] end.

Theorem read_owned : forall c p k s, reach c p k s -> Owned s.
Proof.
  intros c p k. apply reach_Step_ind; [split; reflexivity|]. intros t s s' R IH H.
  pose proof (inv_joined1 _ (inv_reach _ _ _ _ _ _ R)) as I7.
  destruct H; unfold Owned in *; fields; try assumption; destruct IH as [O1 O2].
  - (* A_take *) split; [|exact O2]. rewrite somes_app, <- app_assoc. exact O1.
  - (* A_none *) split; [|exact O2]. rewrite somes_app. cbn. rewrite app_nil_r. exact O1.
  - (* A_destroy *) subst fr. rewrite app_nil_r in O1. auto.
  - (* W1_deliver: worker 1 still runs, so the destructor has not *)
    destruct a; try discriminate (I7 eq_refl); subst fr; rewrite O1, !app_nil_r, app_assoc; auto.
Qed.

Corollary read_released : forall c p k s, reach c p k s -> a_pc s = ADone ->
  made s = somes (got s) ++ freed s /\ q s = [].
Proof.
  intros c p k s R D. destruct (read_owned c p k s R) as [O1 O2]. rewrite D in O2. rewrite O2 in O1. auto.
Qed.

End ReadData.

(* one request above the buffer size runs to the end: buffer 2, one reader request of 3 bytes, containers of 2 bytes.  The request
   raises the buffer size to 3; with the buffer left at 2 worker 2 would wait for room, worker 1 for the third byte and the
   application for an object. *)
Definition big_prog : rprog := RRead 3 (fun _ _ => RDeliver 1 REnd).
Fixpoint run_sched (cap : Z) (fuel : nat) (s : rs) : rs :=
  match fuel with O => s | S f =>
    match step cap TW2 s with Some s' => run_sched cap f s' | None =>
    match step cap TW1 s with Some s' => run_sched cap f s' | None =>
    match step cap TA s with Some s' => run_sched cap f s' | None => s end end end end.
Example big_request_finishes :
  let s := run_sched 10 40 (init 2 [[1; 2]; [3; 4]] big_prog 1) in
  a_pc s = ADone /\ w1 s = W1Done /\ w2 s = W2Done /\ got s = [Some 1] /\ bufsz s = 3.
Proof. vm_compute. repeat split; reflexivity. Qed.
