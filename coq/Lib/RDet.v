(* RDet.v — C07, the read half: what read() returns does not depend on the interleaving.
   The read session model is Lib/RPipe.v (application, parser worker W1 running an arbitrary reader
   program, inflating worker W2).  `seq U p tg` is the schedule-free meaning of a reader program p, started at
   position tg, over the complete uncompressed stream U: the objects it hands over, in order.
   Theorem (read_determinate): in EVERY reachable state of EVERY interleaving, with any queue capacity and
   buffer size, the objects read() has returned so far are a prefix of `seq U p 0`, and once read() has
   returned nullptr they are all of it.  Corollary (read_complete): a finished session whose application
   called read() more often than there are objects received exactly `seq U p 0`, then nullptr.
   Hypothesis wf_prog: the reader's relative seeks stay inside the stream (0 <= target <= |U|) and its
   requests are non-negative — true of the library's parser on well-formed files (it seeks back over the
   16-byte header it peeked and forward over padding); without it a seek past the end is clamped or not
   depending on whether the end was already declared (timing), which only a malformed file can provoke.
   `seq` and `wf_prog` are the specification (to be read); the rest is proof. *)
From Coq Require Import List ZArith Bool Lia.
From VB Require Import Base BaseFacts RPipe.
Import ListNotations.
Local Open Scope Z_scope.

Section Det.
Variable U : list Z.            (* the complete uncompressed stream *)

Fixpoint seq (p : rprog) (tg : Z) : list Z :=
  match p with
  | RRead n k => let bytes := ztake n (zdrop tg U) in seq (k bytes (negb (zlen U <? n + tg))) (tg + zlen bytes)
  | RSeek off k => seq k (tg + off)
  | RDeliver o k => o :: seq k tg
  | RDrop k => seq k tg
  | REnd => []
  end.

Fixpoint wf_prog (p : rprog) (tg : Z) : Prop :=
  match p with
  | RRead n k => 0 <= n /\ let bytes := ztake n (zdrop tg U) in wf_prog (k bytes (negb (zlen U <? n + tg))) (tg + zlen bytes)
  | RSeek off k => 0 <= tg + off <= zlen U /\ wf_prog k (tg + off)
  | RDeliver _ k => wf_prog k tg
  | RDrop k => wf_prog k tg
  | REnd => True
  end.

(* while the application has not started close(): nothing is aborted, the stream holds a prefix of U and
   worker 2 the rest, and what worker 1 has handed over plus what it will hand over is seq p0 0 *)
Record Live (p0 : rprog) (s : rs) : Prop := {
  live_ua : u_abort s = false; live_qa : q_abort s = false; live_run : run2 s = true;
  live_prefix : udata s ++ concat (rest2 (w2 s)) = U;
  live_pos : 0 <= tg s;
  live_wf : wf_prog (rest1 (w1 s)) (tg s);
  live_seq : made s ++ seq (rest1 (w1 s)) (tg s) = seq p0 0;
  live_qeof : q_eof s = match w1 s with W1Done => true | _ => false end }.

Definition is_reading (p : apc) : bool := match p with ARead _ => true | _ => false end.

(* what a read returns is what it would return on the whole stream, whether or not the end is declared yet *)
Lemma read_agrees ud rest (ue : bool) n pos : ud ++ rest = U -> (ue = true -> ud = U) -> 0 <= pos ->
  n + pos <= zlen ud \/ ue = true ->
  ztake n (zdrop pos ud) = ztake n (zdrop pos U) /\ ue && (zlen ud <? n + pos) = (zlen U <? n + pos).
Proof.
  intros E F Hp G. destruct ue.
  - rewrite (F eq_refl). auto.
  - destruct G as [G|G]; [|discriminate G]. subst U. split.
    + symmetry. apply ztake_zdrop_app; assumption.
    + symmetry. rewrite zlen_app. pose proof (zlen_nonneg rest). lia.
Qed.

Variables cap buf : Z.

Lemma live_step p0 c p k t s s' : reach cap buf c p k s -> Step cap t s s' -> is_reading (a_pc s') = true ->
  (is_reading (a_pc s) = true -> Live p0 s) -> Live p0 s'.
Proof.
  intros R H Rd L.
  (* once close() has begun the application never returns to read(): it is in read() after the step, so it was before *)
  assert (Live p0 s) as [Lua Lqa Lrun Lprefix Lpos Lwf Lseq Lqeof]
    by (apply L; destruct H; fields; (exact Rd || discriminate Rd || reflexivity)).
  (* once the end is declared worker 2 is done: nothing is left to write, the stream holds all of U *)
  assert (Lwhole : u_eof s = true -> udata s = U).
  { intros E. rewrite <- Lprefix, (inv_eof_done _ (inv_reach _ _ _ _ _ _ R) E). symmetry. apply app_nil_r. }
  clear L R.
  (* a transition that touches no conjunct keeps them as they stand; five remain, each with what it re-establishes *)
  destruct H; fields; try discriminate Rd;
    try (constructor; (assumption || reflexivity)).
  - (* W1_read: position, well-formedness and what is still to be handed over, since the bytes are those of U *)
    destruct Lwf as [_ Lwf]. destruct H as [H|H]; [congruence|].
    destruct (read_agrees ud _ ue n pos Lprefix Lwhole Lpos H) as [E1 E2]. subst bytes. rewrite E1, E2.
    constructor; try assumption. fields. pose proof (zlen_nonneg (ztake n (zdrop pos U))). lia.
  - (* W1_seek: the same three; the target lies inside the stream, so it is not clamped *)
    destruct Lwf as [Hs Lwf].
    assert (pos' = pos + off) as -> by (subst pos'; destruct ue; [rewrite (Lwhole eq_refl); lia|reflexivity]).
    constructor; try assumption. fields. lia.
  - (* W1_deliver: what is still to be handed over loses what made gains *)
    constructor; try assumption. fields. rewrite <- app_assoc. exact Lseq.
  - (* W2_stopped: run2 is still set *) discriminate Lrun.
  - (* W2_write: the prefix grows by the container *)
    constructor; try assumption. fields. rewrite <- app_assoc. exact Lprefix.
Qed.

Definition Result (p0 : rprog) (g : list (option Z)) : Prop :=
  (exists rest, seq p0 0 = somes g ++ rest) /\ (In None g -> somes g = seq p0 0).

(* Live is asked only while the application is in read(): close() clears run2 and aborts, which Live excludes *)
Definition Det (p0 : rprog) (s : rs) : Prop := Result p0 (got s) /\ (is_reading (a_pc s) = true -> Live p0 s).

Lemma det_reach : forall c p k s, concat c = U -> wf_prog p 0 -> reach cap buf c p k s -> Det p s.
Proof.
  intros c p k s HU Hwf. revert s. apply reach_Step_ind; [|intros t s s' R [G L] H].
  - split; [split; [exists (seq p 0); reflexivity|intros []]|].
    intros _. constructor; cbn; auto; lia.
  - split; [|intros Rd; eapply live_step; eassumption].
    destruct (read_owned _ _ _ _ _ _ R) as [O1 O2].
    destruct H; fields; try exact G; specialize (L eq_refl);
      pose proof (live_qa _ _ L) as Lqa; pose proof (live_seq _ _ L) as Lseq; pose proof (live_qeof _ _ L) as Lqeof;
      unfold Result in *; fields; subst fr; rewrite app_nil_r in O1; rewrite somes_app; cbn [somes].
    + (* A_take: the queue is not empty, so read() has not yet returned nullptr *)
      rewrite <- Lseq, O1, <- app_assoc. split; [eexists; rewrite <- app_assoc; reflexivity|].
      intros Hin. apply in_app_or in Hin as [Hin|[[=]|[]]]. apply G in Hin. rewrite <- Lseq, O1 in Hin.
      apply (f_equal (@length Z)) in Hin. rewrite !app_length in Hin. cbn in Hin. lia.
    + (* A_none: the end of the queue is declared, so worker 1 is done and everything made was returned *)
      destruct H as [->|H]; [|congruence]. destruct w; try discriminate Lqeof.
      rewrite !app_nil_r in *. subst m. split; [exists []; rewrite app_nil_r|]; auto.
Qed.

Theorem read_determinate : forall c p k s, concat c = U -> wf_prog p 0 -> reach cap buf c p k s ->
  (exists rest, seq p 0 = somes (got s) ++ rest) /\ (In None (got s) -> somes (got s) = seq p 0).
Proof. intros c p k s HU Hwf R. apply (det_reach c p k s HU Hwf R). Qed.

Lemma got_count c p k s : reach cap buf c p k s ->
  match a_pc s with ARead j => (length (got s) + j = k)%nat | _ => length (got s) = k end.
Proof.
  revert s. apply reach_Step_ind; [reflexivity|]. intros t s s' _ IH H.
  destruct H; fields; try exact IH; rewrite ?app_length; cbn; lia.
Qed.

Lemma none_or_all (l : list (option Z)) : In None l \/ length (somes l) = length l.
Proof.
  induction l as [|[x|] l IH]; cbn.
  - right. reflexivity.
  - destruct IH as [IH|IH]; [left; right; exact IH|right; f_equal; exact IH].
  - left. left. reflexivity.
Qed.

Theorem read_complete : forall c p k s, concat c = U -> wf_prog p 0 -> reach cap buf c p k s ->
  a_pc s = ADone -> (length (seq p 0) < k)%nat -> somes (got s) = seq p 0 /\ In None (got s).
Proof.
  intros c p k s HU Hwf R HD Hk.
  destruct (read_determinate c p k s HU Hwf R) as [[rest A] B]. pose proof (got_count c p k s R) as K. rewrite HD in K.
  assert (Hnone : In None (got s)).
  { destruct (none_or_all (got s)) as [I|E]; [exact I|].
    exfalso. apply (f_equal (@length Z)) in A. rewrite app_length in A. lia. }
  split; [exact (B Hnone)|exact Hnone].
Qed.

End Det.

(* non-vacuity: a parser-like reader (peek a length byte, seek back, read the object, deliver its
   second byte, drop) over a stream of two objects cut across two containers *)
Fixpoint ex_parser (fuel : nat) : rprog :=
  match fuel with O => REnd | S f =>
    RRead 1 (fun b g => if g then match b with
                                   | [len] => RSeek (-1) (RRead len (fun b' g' => if g' then RDeliver (nth 1 b' 0) (RDrop (ex_parser f)) else REnd))
                                   | _ => REnd end
                        else REnd) end.
Definition ex_conts : list (list Z) := [[2; 7; 3]; [8; 8]].
Example ex_wf : wf_prog (concat ex_conts) (ex_parser 5) 0.
Proof. vm_compute. repeat split; intros C; discriminate C. Qed.
Example ex_seq : seq (concat ex_conts) (ex_parser 5) 0 = [7; 8].
Proof. reflexivity. Qed.
Example ex_session :
  let s := run_sched 1 80 (init 2 ex_conts (ex_parser 5) 4) in
  a_pc s = ADone /\ got s = [Some 7; Some 8; None; None].
Proof. vm_compute. split; reflexivity. Qed.
