(* UFRefine.v — C15, the byte-order half: the UncompressedFile model (container list, per-container
   offset arithmetic, the loops of read/write, close_open, dropOldData) REFINES the flat byte queue
   of UFSpec.v for every history the property describes, of any length, with any chunking and any
   default container size. *)
From Coq Require Import List ZArith Bool Lia.
From VB Require Import Base BaseFacts UFModel UFFacts UFSpec.
Import ListNotations.
Local Open Scope Z_scope.

Definition zl {A} (l : list A) : Z := Z.of_nat (length l).
Definition flat (d : list cont) : list Z := concat (map c_data d).
Fixpoint chain (b : Z) (d : list cont) : Prop :=
  match d with [] => True | c :: r => c_pos c = b /\ chain (c_end c) r end.
Definition endd (b : Z) (d : list cont) : Z := b + zl (flat d).

Lemma flat_app a b : flat (a ++ b) = flat a ++ flat b.
Proof. unfold flat. rewrite map_app, concat_app. reflexivity. Qed.
Lemma flat_cons c r : flat (c :: r) = c_data c ++ flat r.
Proof. reflexivity. Qed.
Lemma flat_nil : flat [] = [].
Proof. reflexivity. Qed.
Lemma flat_one c : flat [c] = c_data c.
Proof. apply app_nil_r. Qed.

(* `len`: arithmetic on positions.  Normal form handed to lia: zl, c_size, c_end, endd, contains
   unfolded; flat pushed through ++ and ::; length pushed through ++, firstn, skipn, repeat, so that
   only lengths of variables, min and nat subtraction remain.  `len` unfolds the definitions everywhere
   but pushes flat and length through in the goal only; `len in *` does that in the hypotheses too and is
   used where one of them holds a ++ or a firstn/skipn. *)
#[local] Hint Rewrite flat_app flat_cons flat_nil : flat.
#[local] Hint Rewrite @app_length @firstn_length @skipn_length @repeat_length : len.
Tactic Notation "len" :=
  unfold contains, endd, c_end, c_size, zl in *; autorewrite with flat; cbn [c_pos c_data]; autorewrite with len; cbn [length]; lia.
Tactic Notation "len" "in" "*" :=
  unfold contains, endd, c_end, c_size, zl in *; autorewrite with flat in *; cbn [c_pos c_data] in *; autorewrite with len in *;
  cbn [length] in *; lia.

Lemma zl_pos {A} (a : list A) : a <> [] -> 0 < zl a.
Proof. destruct a; [congruence|len]. Qed.
Lemma zl_repeat (x : Z) n : 0 <= n -> zl (repeat x (Z.to_nat n)) = n.
Proof. intros. len. Qed.

Lemma slice_nonpos off n (l : list Z) : n <= 0 -> slice off n l = [].
Proof. intros. unfold slice. replace (Z.to_nat n) with 0%nat by lia. reflexivity. Qed.
Lemma slice_app_l off n (l1 l2 : list Z) : 0 <= off -> off + n <= zl l1 -> slice off n (l1 ++ l2) = slice off n l1.
Proof. intros. apply (ztake_zdrop_app l1 l2 off n); [assumption|unfold zl, zlen in *; lia]. Qed.
Lemma slice_app_r off n (l1 l2 : list Z) : zl l1 <= off -> slice off n (l1 ++ l2) = slice (off - zl l1) n l2.
Proof. intros. unfold slice. rewrite skipn_app, skipn_all2 by len. cbn [app]. do 2 f_equal. len. Qed.
Lemma slice_skipn off n k (l : list Z) : 0 <= off -> 0 <= k -> slice off n (skipn (Z.to_nat k) l) = slice (off + k) n l.
Proof. intros. unfold slice. rewrite skipn_skipn'. do 2 f_equal. lia. Qed.
Lemma slice_split off a b (l : list Z) : 0 <= off -> 0 <= a -> 0 <= b -> slice off (a + b) l = slice off a l ++ slice (off + a) b l.
Proof.
  intros. change (ztake (a + b) (zdrop off l) = ztake a (zdrop off l) ++ ztake b (zdrop (off + a) l)).
  rewrite ztake_add, zdrop_add by lia. reflexivity.
Qed.

Lemma chain_app : forall d1 d2 b, chain b (d1 ++ d2) <-> chain b d1 /\ chain (endd b d1) d2.
Proof.
  induction d1 as [|c r IH]; intros d2 b; cbn [app chain].
  - replace (endd b []) with b by len. tauto.
  - rewrite IH. assert (E : c_pos c = b -> endd b (c :: r) = endd (c_end c) r) by (intros; len).
    split; [intros (Hp & A & B)|intros ((Hp & A) & B)]; rewrite (E Hp) in *; tauto.
Qed.

Lemma chain_before : forall d b x, chain b d -> endd b d <= x -> Forall (fun c => contains x c = false) d.
Proof.
  induction d as [|c r IH]; intros b x Hc Hx; [constructor|]. destruct Hc as [E Hc].
  constructor; [len in *|]. apply (IH _ _ Hc). len in *.
Qed.

(* in a chain the container that holds x is determined by position *)
Lemma chain_find b d1 c d2 x : chain b (d1 ++ c :: d2) -> c_pos c <= x < c_end c ->
  containing (d1 ++ c :: d2) x = Some c /\ forall f, update_containing (d1 ++ c :: d2) x f = d1 ++ f c :: d2.
Proof.
  intros Hc Hx. apply chain_app in Hc. destruct Hc as (H1 & E & _).
  destruct (containing_skip x (c :: d2) d1) as [-> Hu]; [apply (chain_before _ b); [exact H1|lia]|].
  unfold containing. cbn [find]. split; [|intros f; rewrite Hu; cbn [update_containing]]; replace (contains x c) with true by len; reflexivity.
Qed.

Lemma chain_find_none b d x : chain b d -> endd b d <= x -> containing d x = None.
Proof.
  intros Hc Hx. destruct (containing_skip x [] d (chain_before _ _ _ Hc Hx)) as [E _].
  rewrite app_nil_r in E. exact E.
Qed.

Lemma read_loop_zero fuel d x n acc : n <= 0 -> read_loop fuel d x n acc = (x, acc).
Proof. intros H. destruct fuel; cbn [read_loop]; [reflexivity|]. replace (n <=? 0) with true by lia. reflexivity. Qed.

Lemma read_loop_step fuel b d1 c r x n acc : chain b (d1 ++ c :: r) -> c_pos c <= x < c_end c -> 0 < n ->
  let g := Z.min n (c_end c - x) in
  read_loop (S fuel) (d1 ++ c :: r) x n acc
  = read_loop fuel (d1 ++ c :: r) (x + g) (n - g) (acc ++ slice (x - c_pos c) g (c_data c)).
Proof.
  intros Hc Hx Hn. cbn [read_loop]. replace (n <=? 0) with false by lia. rewrite (proj1 (chain_find b d1 c r x Hc Hx)).
  unfold c_end. replace (c_size c - (x - c_pos c)) with (c_pos c + c_size c - x) by lia. reflexivity.
Qed.

(* d1: the containers that end at or before x, d2: those still to be looked at.  The loop spends
   an iteration only on a container it takes bytes from, and with n = 0 it returns at once: fuel
   is needed, one per container of d2, only when 0 < n. *)
Lemma read_loop_flat : forall d2 d1 b fuel x n acc,
  chain b (d1 ++ d2) -> endd b d1 <= x -> 0 <= n -> x + n <= endd b (d1 ++ d2) -> (0 < n -> (length d2 <= fuel)%nat) ->
  read_loop fuel (d1 ++ d2) x n acc = (x + n, acc ++ slice (x - endd b d1) n (flat d2)).
Proof.
  induction d2 as [|c r IH]; intros d1 b fuel x n acc Hc Hx Hn Hend Hf;
    (destruct (Z.eq_dec n 0) as [->|Hn0]; [rewrite read_loop_zero, slice_nonpos, app_nil_r by lia; f_equal; lia|]).
  - rewrite app_nil_r in Hend. lia.
  - cbn [length] in Hf.
    assert (Ep : c_pos c = endd b d1) by (apply chain_app in Hc; apply Hc).
    assert (Hre : d1 ++ c :: r = (d1 ++ [c]) ++ r) by (rewrite <- app_assoc; reflexivity).
    assert (Ee : endd b (d1 ++ [c]) = c_end c) by len.
    rewrite flat_cons. destruct (Z_lt_le_dec x (c_end c)) as [Hin|Hout].
    + destruct fuel as [|fuel]; [lia|]. rewrite (read_loop_step fuel b) by (auto; lia).
      set (g := Z.min n (c_end c - x)). rewrite Hre, Ep. destruct (Z_le_gt_dec n (c_end c - x)) as [Hle|Hgt].
      * replace g with n by lia. rewrite read_loop_zero, slice_app_l by len. reflexivity.
      * (* c is used up: the rest comes from r *)
        rewrite (IH (d1 ++ [c]) b); [|rewrite <- Hre; exact Hc|len|lia|rewrite <- Hre; len in *|lia].
        rewrite Ee, <- app_assoc. f_equal; [lia|]. f_equal.
        replace n with (g + (n - g)) at 2 by lia. rewrite slice_split, slice_app_l, slice_app_r by len. do 2 f_equal. len.
    + (* c ends at or before x: it is passed over *)
      rewrite Hre, (IH (d1 ++ [c]) b); [|rewrite <- Hre; exact Hc|lia|lia|rewrite <- Hre; exact Hend|lia].
      rewrite Ee, slice_app_r by len. do 3 f_equal. len.
Qed.

(* The invariant that ties a container list to the flat byte string.
   lo: stream offset of the first container kept; junk: bytes of the last container that lie beyond
   the put position (pre-allocated by write, not yet written).  Last conjunct: when there is junk, a last container
   exists and starts before the put position (so the junk is its tail: CI_last). *)
Definition CI (lo : Z) (junk : list Z) (d : list cont) (buf : list Z) : Prop :=
  0 <= lo <= zl buf /\ chain lo d /\ flat d = skipn (Z.to_nat lo) buf ++ junk /\
  (junk = [] \/ exists d1 c, d = d1 ++ [c] /\ c_pos c < zl buf).

Lemma CI_endd lo junk d buf : CI lo junk d buf -> endd lo d = zl buf + zl junk.
Proof. intros (Hlo & _ & Hf & _). unfold endd. rewrite Hf. len. Qed.

Lemma CI_none lo d buf : CI lo [] d buf -> containing d (zl buf) = None.
Proof. intros H. apply (chain_find_none lo); [apply H|]. rewrite (CI_endd _ _ _ _ H). len. Qed.

Lemma read_loop_CI lo junk d buf x n : CI lo junk d buf -> (0 < n -> lo <= x /\ x + n <= zl buf) ->
  read_loop (S (length d)) d x n [] = (x + Z.max 0 n, slice x n buf).
Proof.
  intros H Hn. destruct (Z_le_gt_dec n 0); [rewrite read_loop_zero, slice_nonpos by lia; f_equal; lia|].
  pose proof (CI_endd _ _ _ _ H) as E. destruct H as (Hlo & Hc & Hf & _).
  rewrite (read_loop_flat d [] lo); cbn [app]; [|exact Hc|len|lia|len|intros; lia].
  rewrite Hf. replace (endd lo []) with lo by len. rewrite slice_app_l, slice_skipn by len. do 2 f_equal; lia.
Qed.

Lemma CI_new lo d buf : CI lo [] d buf -> CI lo [] (d ++ [{| c_pos := zl buf; c_data := [] |}]) buf.
Proof.
  intros H. pose proof (CI_endd _ _ _ _ H) as E. destruct H as (Hlo & Hc & Hf & _).
  split; [exact Hlo|]. split; [|split; [|left; reflexivity]].
  - apply chain_app. split; [exact Hc|]. split; [len in *|exact I].
  - rewrite flat_app, flat_one, Hf. apply app_nil_r.
Qed.

Lemma CI_write lo d1 p pre now rest buf :
  CI lo [] (d1 ++ [{| c_pos := p; c_data := pre |}]) buf -> rest = [] \/ 0 < zl (pre ++ now) ->
  CI lo rest (d1 ++ [{| c_pos := p; c_data := pre ++ now ++ rest |}]) (buf ++ now).
Proof.
  intros H Hr. pose proof (CI_endd _ _ _ _ H) as E. destruct H as (Hlo & Hc & Hf & _).
  rewrite flat_app, flat_one, app_nil_r in Hf. cbn [c_data] in Hf.
  split; [len|]. split; [|split].
  - apply chain_app in Hc. apply chain_app. exact Hc.
  - rewrite flat_app, flat_one, skipn_app_le, <- Hf, <- !app_assoc by len. reflexivity.
  - destruct Hr as [->|Hr]; [left; reflexivity|right]. eexists. eexists. split; [reflexivity|].
    apply chain_app in Hc. destruct Hc as (_ & Ep & _). len in *.
Qed.

Lemma CI_drop1 lo junk c r buf : CI lo junk (c :: r) buf -> c_end c <= zl buf -> CI (c_end c) junk r buf.
Proof.
  intros H Hle. pose proof (CI_endd _ _ _ _ H) as E. destruct H as (Hlo & [Ep Hc] & Hf & Hj).
  split; [len|]. split; [exact Hc|]. split.
  - replace (flat r) with (skipn (length (c_data c)) (flat (c :: r)))
      by (rewrite flat_cons, skipn_app, skipn_all, Nat.sub_diag; reflexivity).
    rewrite Hf, skipn_app_le, skipn_skipn' by len. do 2 f_equal. len.
  - destruct junk as [|j junk]; [left; reflexivity|right]. destruct Hj as [Hj|(d1 & c' & Ed & Hpos)]; [discriminate|].
    destruct d1 as [|c0 d1]; inversion Ed; subst; [len in *|]. exists d1, c'. split; [reflexivity|exact Hpos].
Qed.

(* with junk, the put position lies in the last container, where the junk begins; pre is what has been written of it *)
Lemma CI_last lo junk d buf : CI lo junk d buf -> junk <> [] ->
  exists d1 p pre, let c := {| c_pos := p; c_data := pre ++ junk |} in
    0 < zl pre /\ zl buf - p = zl pre /\ CI lo [] (d1 ++ [{| c_pos := p; c_data := pre |}]) buf /\
    containing d (zl buf) = Some c /\ forall f, update_containing d (zl buf) f = d1 ++ [f c].
Proof.
  intros H Hj. destruct H as (Hlo & Hc & Hf & [Hj0|(d1 & [p dat] & -> & Hpos)]); [contradiction|].
  destruct (proj1 (chain_app _ _ _) Hc) as (Hc1 & Ep & _). cbn [c_pos] in *.
  rewrite flat_app, flat_one in Hf. cbn [c_data] in Hf.
  apply app_eq_app in Hf. destruct Hf as [l [[E1 E2]|[E1 E2]]].
  - (* the string ends inside d1: then the last container would start at or after the put position *)
    exfalso. apply (f_equal zl) in E1. len in *.
  - subst dat. apply zl_pos in Hj. exists d1, p, l. assert (Hl : zl buf - p = zl l) by (apply (f_equal zl) in E1; len in *).
    split; [lia|]. split; [exact Hl|]. split; [|apply (chain_find lo d1 _ [] (zl buf)); [exact Hc|len]].
    split; [exact Hlo|]. split; [|split; [|left; reflexivity]].
    + apply chain_app. split; [exact Hc1|]. split; [exact Ep|exact I].
    + rewrite flat_app, flat_one, app_nil_r. symmetry. exact E1.
Qed.

Lemma firstn_zl_app {A} (pre rest : list A) : firstn (Z.to_nat (zl pre)) (pre ++ rest) = pre.
Proof. exact (ztake_app_exact pre rest). Qed.

Lemma close_open_CI lo junk d buf : CI lo junk d buf -> CI lo [] (close_open d (zl buf)) buf.
Proof.
  intros H. unfold close_open. destruct junk as [|j junk].
  - rewrite (CI_none _ _ _ H). exact H.
  - destruct (CI_last _ _ _ _ H) as (d1 & p & pre & Hpre & Hp & C & -> & ->); [discriminate|].
    cbn [c_pos c_data]. rewrite Hp, firstn_zl_app. replace (0 <? zl pre) with true by lia. exact C.
Qed.

Lemma append_CI lo d buf bs : CI lo [] d buf -> CI lo [] (d ++ [{| c_pos := zl buf; c_data := bs |}]) (buf ++ bs).
Proof.
  intros H. rewrite <- (app_nil_r bs) at 1. apply (CI_write lo d (zl buf) [] bs []); [apply CI_new; exact H|left; reflexivity].
Qed.

Lemma new_cont_CI lo d buf dcs : CI lo [] d buf -> new_cont d (zl buf) dcs = {| c_pos := zl buf; c_data := repeat 0 (Z.to_nat dcs) |}.
Proof.
  intros H. pose proof (CI_endd _ _ _ _ H) as E. destruct H as (_ & Hc & _).
  unfold new_cont. f_equal. destruct d as [|c0 r] eqn:Ed; [reflexivity|]. rewrite <- Ed in *.
  destruct (exists_last (l := d)) as (d1 & c & ->); [subst; discriminate|]. rewrite last_last.
  apply chain_app in Hc. destruct Hc as (_ & Ep & _). len in *.
Qed.

Lemma splice_pre pre now junk : splice (zl pre) now (pre ++ junk) = pre ++ now ++ skipn (length now) junk.
Proof.
  unfold splice. rewrite firstn_zl_app, skipn_app, skipn_all2 by len. cbn [app]. do 3 f_equal. len.
Qed.

(* one iteration of write: the first k bytes of bs go over the start of the room J that the last container has
   behind the put position; what is left of J is the new junk *)
Lemma CI_fill lo d1 p pre J bs k buf : CI lo [] (d1 ++ [{| c_pos := p; c_data := pre |}]) buf -> 0 < k <= zl bs ->
  let now := firstn (Z.to_nat k) bs in
  CI lo (skipn (Z.to_nat k) J) (d1 ++ [{| c_pos := p; c_data := splice (zl pre) now (pre ++ J) |}]) (buf ++ now).
Proof.
  intros C Hk now. rewrite splice_pre. replace (length now) with (Z.to_nat k) by (subst now; len).
  apply CI_write; [exact C|right; subst now; len].
Qed.

Lemma c_size_mk p l : c_size {| c_pos := p; c_data := l |} = zl l.
Proof. reflexivity. Qed.

(* The while loop of UncompressedFile::write spends one iteration on what is free in the last
   container, if anything is (need), and then one per default-sized container it appends, dcs bytes
   each: that is the bound on fuel in write_loop_CI. *)
Definition need (junk : list Z) : Z := match junk with [] => 0 | _ => 1 end.

(* the room write finds at the put position: what is free in the last container or, when nothing is,
   the default-sized container it appends first *)
Definition room (dcs : Z) (junk : list Z) : list Z := match junk with [] => repeat 0 (Z.to_nat dcs) | _ => junk end.

Lemma room_pos dcs junk : 0 < dcs -> 0 < zl (room dcs junk).
Proof. intros. destruct junk; cbn [room]; len. Qed.

Lemma write_loop_step fuel dcs d buf lo junk bs : 0 < dcs -> CI lo junk d buf -> bs <> [] ->
  let k := Z.min (zl bs) (zl (room dcs junk)) in
  exists d', write_loop (S fuel) dcs d (zl buf) bs = write_loop fuel dcs d' (zl buf + k) (skipn (Z.to_nat k) bs)
          /\ CI lo (skipn (Z.to_nat k) (room dcs junk)) d' (buf ++ firstn (Z.to_nat k) bs).
Proof.
  intros Hd H Hbs. pose proof (room_pos dcs junk Hd) as HJ. pose proof (zl_pos _ Hbs) as Hb.
  destruct bs as [|b0 bs0] eqn:Ebs; [congruence|]. rewrite <- Ebs in *. intros k.
  assert (Hk : 0 < k <= zl bs) by (subst k; lia).
  cbn [write_loop]. rewrite Ebs, <- Ebs. fold (zl bs). destruct junk as [|j junk0]; cbn [room] in *.
  - (* the put position is at the end of the last container: append a default-sized one *)
    rewrite (CI_none _ _ _ H), (new_cont_CI lo d buf dcs H). cbn [c_pos c_data].
    rewrite c_size_mk, Z.sub_diag, Z.sub_0_r. fold k. cbn [Z.ltb Z.compare]. rewrite (proj2 (Z.ltb_lt 0 k) (proj1 Hk)).
    eexists. split; [reflexivity|]. apply (CI_fill lo d (zl buf) []); [apply CI_new; exact H|exact Hk].
  - (* the put position lies in the last container: fill its free part *)
    set (junk := j :: junk0) in *. assert (Hj : junk <> []) by discriminate.
    destruct (CI_last _ _ _ _ H Hj) as (d1 & p & pre & _ & Hp & C & -> & ->).
    cbn [c_pos c_data]. rewrite c_size_mk, Hp. replace (zl (pre ++ junk) - zl pre) with (zl junk) by len.
    fold k. eexists. split; [reflexivity|]. apply CI_fill; [exact C|exact Hk].
Qed.

Lemma write_loop_CI : forall fuel dcs d buf lo junk bs, 0 < dcs -> CI lo junk d buf ->
  (bs = [] \/ ((1 <= fuel)%nat /\ zl bs - zl junk <= (Z.of_nat fuel - need junk) * dcs)) ->
  exists d' junk', write_loop fuel dcs d (zl buf) bs = Some (d', zl buf + zl bs) /\ CI lo junk' d' (buf ++ bs).
Proof.
  induction fuel as [|fuel IH]; intros dcs d buf lo junk bs Hd H Hfuel; (destruct bs as [|b0 bs0] eqn:Ebs;
    [exists d, junk; rewrite app_nil_r; split; [cbn; do 2 f_equal; len|exact H]|]); [destruct Hfuel; [discriminate|lia]|].
  rewrite <- Ebs in *. assert (Hbs : bs <> []) by (subst; discriminate). destruct Hfuel as [?|[_ Hfuel]]; [contradiction|].
  destruct (write_loop_step fuel dcs d buf lo junk bs Hd H Hbs) as (d1 & -> & H1).
  set (J := room dcs junk) in *. set (k := Z.min (zl bs) (zl J)) in *.
  destruct (IH dcs d1 _ lo _ (skipn (Z.to_nat k) bs) Hd H1) as (d' & junk' & W & C).
  - (* either nothing is left of bs, or the room is full and what is left needs one container less *)
    destruct (Z_le_gt_dec (zl bs) (zl J)); [left; apply skipn_all2; len|right].
    replace (skipn (Z.to_nat k) J) with (@nil Z) by (symmetry; apply skipn_all2; len).
    assert (Hrest : 0 < zl bs - zl J <= Z.of_nat fuel * dcs).
    { subst J. destruct junk; cbn [need room] in *; len in *. }
    split; [destruct fuel; lia|cbn [need]; len].
  - exists d', junk'. rewrite <- app_assoc, firstn_skipn in C. split; [|exact C].
    replace (zl buf + k) with (zl (buf ++ firstn (Z.to_nat k) bs)) by len. rewrite W. do 2 f_equal. len.
Qed.

Lemma drop_CI lo junk d buf tg fsz : CI lo junk d buf ->
  exists lo', CI lo' junk (drop_all d tg (zl buf) fsz) buf /\ lo <= lo' /\ (lo' = lo \/ (lo' <= tg /\ lo' <= fsz)).
Proof.
  revert lo. induction d as [|c r IH]; intros lo H; cbn [drop_all]; [exists lo; split; [exact H|lia]|].
  destruct ((tg <? c_end c) || (zl buf <? c_end c) || (fsz <? c_end c)) eqn:G; [exists lo; split; [exact H|lia]|].
  destruct (IH (c_end c)) as (lo' & C & Hle & Hcase); [apply (CI_drop1 lo); [exact H|lia]|].
  exists lo'. split; [exact C|]. destruct H as (_ & [Ep _] & _). len.
Qed.

(* everything a caller can observe agrees, and the container list holds exactly the bytes of the
   flat string from some offset lo (not beyond the drop horizon) up to the put position *)
Definition R (s : uf) (q : bq) : Prop :=
  u_abort s = q_abort q /\ u_tellg s = q_g q /\ u_tellp s = q_p q /\ u_gcount s = q_gcount q /\
  u_fsz s = q_F q /\ u_buf s = q_B q /\ u_rd s = q_rd q /\ u_dcs s = q_dcs q /\ 0 < q_dcs q < 4294967296 /\
  exists lo junk, CI lo junk (u_data s) (q_buf q) /\ lo <= q_hor q.

(* R read as a function: the state related to q is q's fields around a container list *)
Definition uf_of (q : bq) (d : list cont) : uf :=
  {| u_abort := q_abort q; u_data := d; u_tellg := q_g q; u_tellp := q_p q; u_gcount := q_gcount q;
     u_fsz := q_F q; u_buf := q_B q; u_rd := q_rd q; u_dcs := q_dcs q |}.

Lemma R_uf_of s q : R s q ->
  exists d lo junk, s = uf_of q d /\ 0 < q_dcs q < 4294967296 /\ CI lo junk d (q_buf q) /\ lo <= q_hor q.
Proof.
  intros (Ha & Hg & Hp & Hgc & HF & HB & Hrd & Hdcs & Hr & lo & junk & H). exists (u_data s), lo, junk.
  split; [|tauto]. destruct s; cbn in *. subst. reflexivity.
Qed.

Lemma R_next q' s' d' lo' junk' :
  s' = uf_of q' d' -> 0 < q_dcs q' < 4294967296 -> CI lo' junk' d' (q_buf q') -> lo' <= q_hor q' -> R s' q'.
Proof. intros -> Hr C Hh. unfold R. cbn. repeat split; try apply Hr. exists lo', junk'. exact (conj C Hh). Qed.

Lemma R_init : R uf_init bq_init.
Proof.
  apply (R_next _ _ [] 0 []); [reflexivity|cbn; lia| |cbn; lia].
  repeat split; try (cbn; lia). left. reflexivity.
Qed.

Lemma R_obs s q : R s q -> uf_obs s = bq_obs q.
Proof. intros H. apply R_uf_of in H. destruct H as (d & lo & junk & -> & _). reflexivity. Qed.

Lemma write_fuel_enough s (bs junk : list Z) : 0 < u_dcs s ->
  (1 <= write_fuel s (zl bs))%nat /\ zl bs - zl junk <= (Z.of_nat (write_fuel s (zl bs)) - need junk) * u_dcs s.
Proof.
  intros Hd. unfold write_fuel. split; [lia|].
  replace (Z.max 1 (u_dcs s)) with (u_dcs s) by lia.
  set (k := (zl bs + Z.max 0 (u_tellp s)) / u_dcs s).
  assert (Hk : zl bs + Z.max 0 (u_tellp s) < u_dcs s * Z.succ k) by (apply Z.mul_succ_div_gt; lia).
  assert (Hn : need junk <= 1) by (destruct junk; cbn; lia).
  (* k + 3: write_fuel is at least k + 4 (S (S _) + k + 2), and need junk at most 1 *)
  apply Z.le_trans with ((k + 3) * u_dcs s); [len|]. apply Z.mul_le_mono_nonneg_r; lia.
Qed.

Theorem refine_step : forall s q o q' out, R s q -> bq_step q o = Some (q', out) ->
  uenabled s o = true /\ exists s', ustep s o = Some (s', out) /\ R s' q'.
Proof.
  intros s q o q' out HR Hstep. apply R_uf_of in HR. destruct HR as (d & lo & junk & -> & Hdcs & HCI & Hhor).
  destruct o as [n|off|bs|bs| | |n|n|n| ]; cbn [bq_step] in Hstep.
  (* seekg, setFileSize, setBufferSize, abort: only fields change, the same on both sides *)
  2, 7, 8, 10: injection Hstep as <- <-; split; [reflexivity|]; eexists; (split; [reflexivity|]); apply (R_next _ _ d lo junk); auto.
  - destruct (bq_read_ok q n) eqn:Hok; [|discriminate]. cbn [negb] in Hstep.
    set (n' := if q_F q <? n + q_g q then q_F q - q_g q else n) in *.
    destruct ((0 <? n') && ((q_p q <? q_g q + n') || (q_g q <? q_hor q))) eqn:Hscope; [discriminate|].
    injection Hstep as <- <-. split; [exact Hok|].
    cbn [ustep]. unfold uf_read. cbn [uf_of u_fsz u_tellg u_data]. fold n'.
    unfold q_p in Hscope. rewrite (read_loop_CI lo junk d (q_buf q) _ _ HCI) by len.
    eexists. split; [reflexivity|]. apply (R_next _ _ d lo junk); auto. unfold uf_of. cbn. f_equal. lia.
  - destruct (bq_write_ok q) eqn:Hok; [|discriminate]. injection Hstep as <- <-. split; [exact Hok|].
    cbn [ustep]. unfold uf_write. fold (zl bs).
    destruct (write_fuel_enough (uf_of q d) bs junk) as [Hf1 Hf2]; [cbn; lia|].
    destruct (write_loop_CI (write_fuel (uf_of q d) (zl bs)) (q_dcs q) d (q_buf q) lo junk bs) as (d' & junk' & W & C);
      [lia|exact HCI|right; split; assumption|].
    cbn [uf_of u_dcs u_data u_tellp]. unfold q_p at 1. fold (zl (q_buf q)). rewrite W.
    eexists. split; [reflexivity|]. apply (R_next _ _ d' lo junk'); auto. unfold uf_of, q_p. cbn. f_equal; len.
  - destruct (bq_write_ok q) eqn:Hok; [|discriminate]. injection Hstep as <- <-. split; [exact Hok|].
    eexists. split; [reflexivity|].
    eapply (R_next _ _ _ lo []); [unfold uf_of, q_p; cbn; rewrite app_length, Nat2Z.inj_add; reflexivity|auto..].
    apply append_CI, (close_open_CI lo junk), HCI.
  - injection Hstep as <- <-. split; [reflexivity|]. eexists. split; [reflexivity|].
    eapply (R_next _ _ _ lo []); [reflexivity|auto..]. apply (close_open_CI lo junk), HCI.
  - (* UDrop: lo moves up, but not beyond what the horizon is raised to *)
    injection Hstep as <- <-. split; [reflexivity|]. eexists. split; [reflexivity|].
    destruct (drop_CI lo junk d (q_buf q) (q_g q) (q_F q) HCI) as (lo' & C & Hle & Hcase).
    eapply (R_next _ _ _ lo' junk); [reflexivity|auto|exact C|]. destruct C as (Hlo' & _). cbn. unfold q_p. len.
  - (* USetDcs n: the uint32 member holds n itself *)
    destruct ((0 <? n) && (n <? 4294967296)) eqn:Hn; [|discriminate]. injection Hstep as <- <-. split; [reflexivity|].
    eexists. split; [reflexivity|].
    apply (R_next _ _ d lo junk); auto; [|cbn; lia]. unfold uf_of, uf_setDcs. cbn. f_equal. apply Z.mod_small. lia.
Qed.

Lemma bq_run_cons q o r q' outs : bq_run q (o :: r) = Some (q', outs) ->
  exists q1 b bs, bq_step q o = Some (q1, b) /\ bq_run q1 r = Some (q', bs) /\ outs = b :: bs.
Proof.
  cbn [bq_run]. destruct (bq_step q o) as [[q1 b]|]; [|discriminate]. destruct (bq_run q1 r) as [[q2 bs]|] eqn:Hr; [|discriminate].
  intros H. inversion H; subst. exists q1, b, bs. auto.
Qed.

Theorem refine_run : forall ops s q q' outs, R s q -> bq_run q ops = Some (q', outs) ->
  exists s', uf_run s ops = Some (s', outs) /\ R s' q'.
Proof.
  induction ops as [|o r IH]; intros s q q' outs HR Hrun.
  - inversion Hrun; subst. exists s. split; [reflexivity|exact HR].
  - destruct (bq_run_cons _ _ _ _ _ Hrun) as (q1 & b & bs & Hs & Hr & ->). cbn [uf_run].
    destruct (refine_step _ _ _ _ _ HR Hs) as (Hen & s1 & Hu & HR1). rewrite Hen, Hu.
    destruct (IH _ _ _ _ HR1 Hr) as (s2 & Hu2 & HR2). rewrite Hu2. exists s2. split; [reflexivity|exact HR2].
Qed.

(* C15 for histories (the claim in the library's terms: head of Props/Properties_C15.v) *)
Theorem uf_refines : forall ops q' outs, bq_run bq_init ops = Some (q', outs) ->
  exists s', uf_run uf_init ops = Some (s', outs) /\ uf_obs s' = bq_obs q'.
Proof.
  intros ops q' outs H. destruct (refine_run ops uf_init bq_init q' outs R_init H) as (s' & Hu & HR).
  exists s'. split; [exact Hu|apply R_obs; exact HR].
Qed.

Lemma bq_run_app ops1 ops2 : forall q, bq_run q (ops1 ++ ops2) =
  match bq_run q ops1 with
  | Some (q1, outs1) => match bq_run q1 ops2 with Some (q2, outs2) => Some (q2, outs1 ++ outs2) | None => None end
  | None => None end.
Proof.
  induction ops1 as [|o r IH]; intros q; cbn [bq_run app]; [destruct (bq_run q ops2) as [[? ?]|]; reflexivity|].
  destruct (bq_step q o) as [[q1 b]|]; [|reflexivity]. rewrite IH.
  destruct (bq_run q1 r) as [[q2 o2]|]; [|reflexivity]. destruct (bq_run q2 ops2) as [[? ?]|]; reflexivity.
Qed.

(* and every prefix: the observations agree after every call, not only at the end *)
Theorem uf_refines_prefix : forall ops1 ops2 q' outs, bq_run bq_init (ops1 ++ ops2) = Some (q', outs) ->
  exists q1 outs1 s1, bq_run bq_init ops1 = Some (q1, outs1) /\ uf_run uf_init ops1 = Some (s1, outs1) /\ uf_obs s1 = bq_obs q1.
Proof.
  intros ops1 ops2 q' outs H. rewrite bq_run_app in H. destruct (bq_run bq_init ops1) as [[q1 outs1]|] eqn:E1; [|discriminate].
  destruct (uf_refines _ _ _ E1) as (s1 & Hu & Ho). exists q1, outs1, s1. auto.
Qed.

Definition wbytes (o : uop) : list Z := match o with UWrite bs => bs | UWriteC bs => bs | _ => [] end.
Definition is_seek (o : uop) : bool := match o with USeekg _ => true | _ => false end.

(* a call other than seekg leaves the get position where it is and delivers nothing, or moves it forward
   within the bytes written and delivers the bytes it passes over *)
Lemma bq_step_facts q o q' out : bq_step q o = Some (q', out) ->
  q_buf q' = q_buf q ++ wbytes o /\ (0 <= q_hor q -> 0 <= q_hor q') /\
  (is_seek o = false -> 0 <= q_hor q ->
   (q_g q' = q_g q /\ out = []) \/
   (0 <= q_g q < q_g q' /\ q_g q' <= q_p q /\ out = slice (q_g q) (q_g q' - q_g q) (q_buf q))).
Proof.
  destruct o as [n|off|bs|bs| | |n|n|n| ]; cbn [bq_step wbytes is_seek]; intros H.
  3, 4: destruct (negb (bq_write_ok q)); [discriminate|].
  9: destruct ((0 <? n) && (n <? 4294967296)); [|discriminate].
  (* all but read and seekg: the get position stays and nothing is delivered *)
  3-10: injection H as <- <-; cbn [q_buf q_hor q_g]; rewrite ?app_nil_r; repeat split; auto; lia.
  - destruct (negb (bq_read_ok q n)); [discriminate|].
    set (n' := if q_F q <? n + q_g q then q_F q - q_g q else n) in *.
    destruct ((0 <? n') && ((q_p q <? q_g q + n') || (q_g q <? q_hor q))) eqn:Sc; [discriminate|].
    injection H as <- <-. cbn [q_buf q_hor q_g]. rewrite app_nil_r. repeat split; try lia. intros _ Hh.
    destruct (Z_le_gt_dec n' 0); [left; rewrite slice_nonpos by lia; split; [lia|reflexivity]|right].
    repeat split; try lia. f_equal. lia.
  - injection H as <- <-. cbn [q_buf q_hor]. rewrite app_nil_r. repeat split; lia || discriminate.
Qed.

Theorem bq_buf_is_writes : forall ops q q' outs, bq_run q ops = Some (q', outs) ->
  q_buf q' = q_buf q ++ concat (map wbytes ops).
Proof.
  induction ops as [|o r IH]; intros q q' outs H.
  - inversion H; subst. cbn. rewrite app_nil_r. reflexivity.
  - destruct (bq_run_cons _ _ _ _ _ H) as (q1 & b & bs & Hs & Hr & ->).
    rewrite (IH _ _ _ Hr), (proj1 (bq_step_facts _ _ _ _ Hs)). cbn [map concat]. rewrite app_assoc. reflexivity.
Qed.

(* FIFO, independent of chunking: in a history without seeks, the bytes delivered by all the reads
   together are one contiguous stretch of the concatenation of everything written — starting at the
   get position before the history and ending at the get position after it — however the writes
   and the reads were cut.  The horizon is non-negative (as in bq_init) so that a read that delivers bytes starts at a
   non-negative position: it starts at or after the horizon. *)
Theorem bq_fifo : forall ops q q' outs, 0 <= q_hor q -> bq_run q ops = Some (q', outs) -> existsb is_seek ops = false ->
  q_g q <= q_g q' /\ concat outs = slice (q_g q) (q_g q' - q_g q) (q_buf q ++ concat (map wbytes ops)).
Proof.
  induction ops as [|o r IH]; intros q q' outs Hh H Hs.
  - inversion H; subst. cbn. split; [lia|]. rewrite slice_nonpos by lia. reflexivity.
  - destruct (bq_run_cons _ _ _ _ _ H) as (q1 & b & bs & Hst & Hr & ->). cbn [existsb] in Hs. apply orb_false_elim in Hs. destruct Hs as [Hs1 Hs2].
    destruct (bq_step_facts _ _ _ _ Hst) as (Hbuf & Hhor & Hread).
    destruct (IH q1 q' bs (Hhor Hh) Hr Hs2) as (Hle & Hrest).
    cbn [concat map]. rewrite Hrest, Hbuf, <- app_assoc. destruct (Hread Hs1 Hh) as [[Eg ->]|(Hg & Hp & ->)].
    + rewrite Eg in *. split; [exact Hle|reflexivity].
    + unfold q_p in Hp. split; [lia|]. replace (q_g q' - q_g q) with ((q_g q1 - q_g q) + (q_g q' - q_g q1)) by lia.
      rewrite slice_split, (slice_app_l _ (q_g q1 - q_g q)) by len. do 2 f_equal. lia.
Qed.
