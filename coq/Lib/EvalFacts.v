(* EvalFacts.v — expression evaluation: frame lemma, and exactness of the (small, non-negative)
   arithmetic used for byte and element counts. *)
From VB Require Import Base IR Sem BaseFacts.
Local Open Scope Z_scope.
(* a lemma may depend only on the section variables its statement mentions.  lia, nia, tauto and auto can leave a section
   variable or hypothesis they met in the context (call here; cap_ge, sig_range in Roundtrip and ClassRT) in the proof term,
   and Qed then fails; hence the `clear` at the head of proofs here, in Roundtrip and in ClassRT *)
Set Default Proof Using "Type".

Lemma rank_promote t : 3 <= rank (promote t).
Proof. destruct t; cbn; lia. Qed.

Lemma rank_common a b : 3 <= rank (common a b).
Proof.
  unfold common. pose proof (rank_promote a). pose proof (rank_promote b).
  destruct (ity_eqb (promote a) (promote b)); [lia|].
  destruct (Bool.eqb _ _); [destruct (rank (promote a) <? rank (promote b)); lia|].
  destruct (signed (promote a)); destruct (_ <=? _); lia.
Qed.

Lemma arith_small t v : 0 <= v < 2 ^ 31 -> 3 <= rank t -> arith t v = Ok (v, t).
Proof.
  intros Hv Hr. unfold arith. destruct (signed t) eqn:Es.
  - replace (in_range t v) with true; [reflexivity|].
    destruct t; cbn in Hr, Es; try lia; try discriminate; unfold in_range, bits; cbn [width signed]; lia.
  - rewrite norm_small by assumption. reflexivity.
Qed.

Lemma eval_mul_small a ta b tb : 0 <= a < 2 ^ 31 -> 0 <= b < 2 ^ 31 -> 0 <= a * b < 2 ^ 31 ->
  eval_bin OMul (a, ta) (b, tb) = Ok (a * b, common ta tb).
Proof.
  intros Ha Hb Hab. unfold eval_bin. pose proof (rank_common ta tb).
  rewrite !norm_small by assumption. apply arith_small; assumption.
Qed.

Lemma eval_div_small a ta b tb : 0 <= a < 2 ^ 31 -> 0 <= b < 2 ^ 31 -> 0 < b ->
  eval_bin ODiv (a, ta) (b, tb) = Ok (a / b, common ta tb).
Proof.
  intros Ha Hb Hpos. unfold eval_bin. pose proof (rank_common ta tb).
  rewrite !norm_small by assumption.
  replace (b =? 0) with false by lia.
  rewrite Z.quot_div_nonneg by lia.
  apply arith_small; [|assumption].
  split; [apply Z.div_pos; lia|]. apply Z.div_lt_upper_bound; nia.
Qed.

Section WithClasses.
Variable cs : classes.
Variable call : target -> mid -> state -> res (Z * ity).

Fixpoint scalar_only (e : expr) : bool :=
  match e with
  | EConst _ _ | EField _ | ESizeof _ | ESizeofT _ => true
  | ESize _ | EVar _ | ECall _ _ => false
  | EUn _ a | ECast _ a => scalar_only a
  | EBin _ a b => scalar_only a && scalar_only b
  | ECond c a b => scalar_only c && scalar_only a && scalar_only b
  end.

Fixpoint reads (e : expr) : list Z :=
  match e with
  | EField f => [f]
  | EUn _ a | ECast _ a => reads a
  | EBin _ a b => reads a ++ reads b
  | ECond c a b => reads c ++ reads a ++ reads b
  | _ => []
  end.

Lemma eval_frame e : forall r s l, scalar_only e = true -> (forall f, In f (reads e) -> r f = s f) ->
  eval cs call r l e = eval cs call s l e.
Proof.
  induction e as [z t|f|f|f|n|x|o a IHa|o a IHa b IHb|c IHc a IHa b IHb|t a IHa|tg m];
    intros r s l Hs Ha; cbn [scalar_only] in Hs; try discriminate; cbn [eval reads] in *; try reflexivity.
  - rewrite (Ha f) by (left; reflexivity). reflexivity.
  - rewrite (IHa r s l Hs Ha). reflexivity.
  - apply andb_prop in Hs. destruct Hs as [Hs1 Hs2].
    rewrite (IHa r s l Hs1), (IHb r s l Hs2) by auto using in_or_app. reflexivity.
  - apply andb_prop in Hs. destruct Hs as [Hs12 Hs3]. apply andb_prop in Hs12. destruct Hs12 as [Hs1 Hs2].
    rewrite (IHc r s l Hs1), (IHa r s l Hs2), (IHb r s l Hs3) by (intros f Hf; apply Ha; rewrite !in_app_iff; auto). reflexivity.
  - rewrite (IHa r s l Hs Ha). reflexivity.
Qed.

Lemma eval_as_in_type t s l e v : eval_as cs call t s l e = Ok v -> in_type t v = true.
Proof. unfold eval_as. destruct (eval cs call s l e); [|discriminate]. intros E. injection E as <-. apply norm_in_type. Qed.

Inductive cnt := CSize (f k : Z).
Definition lenmap := list (Z * cnt).

Definition elt_of (f : Z) : Z := match find_field cs f with Some x => kelt (f_kind x) | None => 1 end.
Definition elems (s : state) (f : Z) : Z := match s f with VBytes b => zlen b / elt_of f | _ => 0 end.
Definition cnt_val (s : state) (c : cnt) : Z := match c with CSize f k => elems s f * k end.

Fixpoint mlook (g : Z) (M : lenmap) : option cnt :=
  match M with [] => None | (g', c) :: r => if g' =? g then Some c else mlook g r end.

Definition wide (t : ity) : bool := 3 <=? rank t.

(* cnt_of M e = Some (CSize f k): e is f.size(), a member that M maps to a count, one of these multiplied or divided by
   sizeof(T), or one under a cast to a type of int's rank or above; e then evaluates to elems f * k, 0 < k <= 8 (cnt_of_sound) *)
Fixpoint cnt_of (M : lenmap) (e : expr) : option cnt :=
  match e with
  | ESize f => Some (CSize f 1)
  | EField g => mlook g M
  | ECast t a => if wide t then cnt_of M a else None
  | EBin OMul a (ESizeofT k) =>
      match cnt_of M a with
      | Some (CSize f k0) => if (0 <? k) && (k0 * k <=? 8) then Some (CSize f (k0 * k)) else None
      | None => None end
  | EBin ODiv a (ESizeofT k) =>
      match cnt_of M a with
      | Some (CSize f k0) => if (0 <? k) && (k <=? 8) && (k0 mod k =? 0) then Some (CSize f (k0 / k)) else None
      | None => None end
  | _ => None
  end.

(* container f is a byte list of a whole number of elements: fewer than 2^28 bytes (= Base.default_cap, see Roundtrip.cap_ge)
   of elements of at most 8 bytes (uint64_t, double: the widest the classes have), so that every count elems * k, k <= 8,
   stays below the 2^31 under which arith_small and norm_small keep C arithmetic exact *)
Definition cont_ok (s : state) (f : Z) : Prop :=
  exists x b, find_field cs f = Some x /\ s f = VBytes b /\ 0 < kelt (f_kind x) <= 8 /\
              zlen b mod kelt (f_kind x) = 0 /\ zlen b < 2 ^ 28 /\
              match f_kind x with KScalar _ => False | _ => True end.

Definition M_sound (M : lenmap) (s : state) : Prop :=
  forall g c, mlook g M = Some c ->
    exists x t, find_field cs g = Some x /\ f_kind x = KScalar t /\ s g = VInt (cnt_val s c) /\
                (match c with CSize f k => cont_ok s f /\ 0 < k <= 8 end).

Lemma cont_elems s f : cont_ok s f -> 0 <= elems s f /\ elems s f * elt_of f < 2 ^ 28 /\
  exists b, s f = VBytes b /\ elems s f * elt_of f = zlen b /\ 0 < elt_of f <= 8.
Proof.
  clear call.
  intros (x & b & Hf & Hb & He & Hm & Hl & _). unfold elems, elt_of. rewrite Hf, Hb.
  pose proof (zlen_nonneg b).
  split; [apply Z.div_pos; lia|]. split; [(Z.div_mod_to_equations; nia)|].
  exists b. split; [reflexivity|]. split; [(Z.div_mod_to_equations; nia)|lia].
Qed.

Lemma cnt_of_sound M e : forall s l f k, cnt_of M e = Some (CSize f k) -> M_sound M s -> cont_ok s f ->
  0 < k <= 8 /\ exists t, eval cs call s l e = Ok (elems s f * k, t).
Proof.
  induction e as [z t|g|g|g|n|x|o a IHa|o a IHa b IHb|c IHc a IHa b IHb|t a IHa|tg m];
    intros s l f k Hc HM Hf; cbn [cnt_of] in Hc; try discriminate.
  - destruct (HM g _ Hc) as (x & t & Hx & Hk & Hv & Hcf & Hkk).
    split; [exact Hkk|]. exists t. cbn [eval]. rewrite Hx, Hv, Hk. reflexivity.
  - injection Hc as <- <-. split; [lia|]. exists U64. cbn [eval].
    destruct Hf as (x & b & Hx & Hb & He & Hm & Hl & Hkind).
    unfold elems, elt_of. rewrite Hx, Hb. rewrite Z.mul_1_r. reflexivity.
  - destruct o; try discriminate.
    + destruct b as [| | | |kk| | | | | |]; try discriminate.
      destruct (cnt_of M a) as [[f0 k0]|] eqn:Ea; [|discriminate].
      destruct ((0 <? kk) && (k0 * kk <=? 8)) eqn:Ek; [|discriminate].
      injection Hc as <- <-.
      destruct (IHa s l f0 k0 eq_refl HM Hf) as (Hk0 & t & Hev).
      split; [nia|]. exists (common t U64). cbn [eval]. rewrite Hev. cbn [bind].
      destruct (cont_elems s f0 Hf) as (H0 & H1 & b' & _ & H2 & H3).
      rewrite eval_mul_small; [f_equal; f_equal; lia| | |]; nia.
    + destruct b as [| | | |kk| | | | | |]; try discriminate.
      destruct (cnt_of M a) as [[f0 k0]|] eqn:Ea; [|discriminate].
      destruct ((0 <? kk) && (kk <=? 8) && (k0 mod kk =? 0)) eqn:Ek; [|discriminate].
      injection Hc as <- <-.
      destruct (IHa s l f0 k0 eq_refl HM Hf) as (Hk0 & t & Hev).
      assert (Hkk : 0 < kk <= 8 /\ k0 mod kk = 0) by lia.
      assert (Hq : k0 = kk * (k0 / kk)) by (destruct Hkk as [? Hm]; pose proof (Z.div_mod k0 kk); lia).
      split; [nia|]. exists (common t U64). cbn [eval]. rewrite Hev. cbn [bind].
      destruct (cont_elems s f0 Hf) as (H0 & H1 & b' & _ & H2 & H3).
      rewrite eval_div_small; [| | |lia]; [|nia|lia].
      f_equal. f_equal. rewrite Hq at 1.
      replace (elems s f0 * (kk * (k0 / kk))) with ((elems s f0 * (k0 / kk)) * kk) by lia.
      apply Z.div_mul. lia.
  - destruct (wide t) eqn:Ew; [|discriminate].
    destruct (IHa s l f k Hc HM Hf) as (Hk & ta & Hev).
    split; [exact Hk|]. exists t. cbn [eval]. rewrite Hev. cbn [bind fst].
    destruct (cont_elems s f Hf) as (H0 & H1 & b' & _ & H2 & H3).
    rewrite norm_small; [reflexivity|unfold wide in Ew; lia|nia].
Qed.

End WithClasses.
