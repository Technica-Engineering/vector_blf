(* ObjLoop.v — one iteration of the parser loop FileModel.obj_loop, for any class table: what it does once the results of
   its two decoder calls are known, what can be said of it when they are not, and that fuel beyond what it needs changes
   nothing. *)
From VB Require Import Base IR Sem BaseFacts FileModel.
Local Open Scope Z_scope.

Section Loop.
Variable cs : classes.
Variable sp : scan_params.
Variable cap : Z.
Variable factory : list (Z * Z).
Variables C_ohb F_osz F_otype : Z.

Local Notation OL := (obj_loop cs sp cap factory C_ohb F_osz F_otype).
Local Notation header := (dec cs sp cap C_ohb (fresh cs C_ohb)).

Lemma iter_unknown fuel i acc count h i1 : header i = Ok (h, i1) -> s_good i1 = true ->
  lookup_factory factory (geti h F_otype) = 0 ->
  OL (S fuel) i acc count = OL fuel (s_seek (Z.max (geti h F_osz) 16) (s_seek (-16) i1)) acc count.
Proof.
  intros E1 G1 Ec. cbn [obj_loop]. rewrite E1, G1, Ec. cbn [negb Z.eqb].
  rewrite ltb_max, Z.max_comm. reflexivity.
Qed.

(* sz0 <= the declared size: the branch without the final seek back to the declared end *)
Lemma iter_known fuel i acc count h i1 c sz0 o i3 : header i = Ok (h, i1) -> s_good i1 = true ->
  lookup_factory factory (geti h F_otype) = c -> c <> 0 ->
  osize cs c (fresh cs c) = Ok sz0 -> sz0 <= Z.max (geti h F_osz) 16 ->
  dec cs sp cap c (fresh cs c) (s_seek (-16) i1) = Ok (o, i3) -> s_good i3 = true ->
  OL (S fuel) i acc count = OL fuel i3 (acc ++ [(c, o)]) (if geti o F_otype =? 115 then count else (count + 1) mod 2 ^ 32).
Proof.
  intros E1 G1 Ec Hc Es Hle E3 G3. cbn [obj_loop]. rewrite E1, G1, Ec. cbn [negb].
  replace (c =? 0) with false by lia. rewrite Es.
  rewrite ltb_max, Z.max_comm. replace (Z.max (geti h F_osz) 16 <? sz0) with false by lia.
  rewrite E3, G3. reflexivity.
Qed.

(* an inversion of one iteration for proofs about what is delivered.  The first disjunct says that the whole run delivers
   nothing beyond acc: the iteration ended the loop, for whichever of its reasons, and those proofs do not ask which.
   Otherwise both decoder calls succeeded on streams that stayed good (the header's alone when the type is unknown). *)
Lemma iter_inv fuel i acc count : fst (fst (OL (S fuel) i acc count)) = acc \/
  exists h i1, header i = Ok (h, i1) /\ s_good i1 = true /\
    let c := lookup_factory factory (geti h F_otype) in
    c = 0 \/ exists o i3, dec cs sp cap c (fresh cs c) (s_seek (-16) i1) = Ok (o, i3) /\ s_good i3 = true.
Proof.
  cbn [obj_loop]. destruct (header i) as [[h i1]|e]; [|left; destruct e; reflexivity].
  destruct (s_good i1) eqn:G1; [|left; reflexivity]. cbn [negb].
  destruct (Z.eqb_spec (lookup_factory factory (geti h F_otype)) 0) as [Ec|_].
  { right. exists h, i1. split; [reflexivity|]. split; [exact G1|]. left. exact Ec. }
  destruct (osize cs _ _); [|left; reflexivity].
  destruct (dec cs sp cap _ _ (s_seek (-16) i1)) as [[o i3]|e] eqn:E3; [|left; destruct e; reflexivity].
  destruct (s_good i3) eqn:G3; [|left; reflexivity].
  right. exists h, i1. split; [reflexivity|]. split; [exact G1|]. right. exists o, i3. split; [exact E3|exact G3].
Qed.

Lemma obj_loop_fuel : forall f1 f2 i acc count, (f1 <= f2)%nat -> snd (OL f1 i acc count) <> EndFuel ->
  OL f2 i acc count = OL f1 i acc count.
Proof.
  induction f1 as [|f1 IH]; intros f2 i acc count Hle Hne; [contradiction Hne; reflexivity|].
  destruct f2 as [|f2]; [lia|]. cbn [obj_loop] in *.
  destruct (header i) as [[h i1]|e]; [|reflexivity]. destruct (negb (s_good i1)); [reflexivity|].
  destruct (_ =? 0); [apply IH; [lia|exact Hne]|].
  destruct (osize cs _ _); [|reflexivity]. destruct (dec cs sp cap _ _ _) as [[o i3]|e]; [|reflexivity].
  destruct (negb (s_good i3)); [reflexivity|]. apply IH; [lia|exact Hne].
Qed.
End Loop.

Arguments iter_unknown {cs sp cap factory C_ohb} F_osz {F_otype} fuel {i} acc count {h i1}.
Arguments iter_known {cs sp cap factory C_ohb F_osz F_otype} fuel {i} acc count {h i1 c sz0 o i3}.
