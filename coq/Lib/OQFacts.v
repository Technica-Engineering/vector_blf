(* OQFacts.v — the object-queue model (C16): FIFO, end of stream, back-pressure, abort, wake-ups.
   `qrun_inv` is the induction the theorems about histories share. *)
From Coq Require Import List ZArith Bool Lia.
From VB Require Import OQModel.
Import ListNotations.
Local Open Scope Z_scope.

Lemma M32_pos : 0 < M32. Proof. reflexivity. Qed.

Lemma qstep_fifo s o :
  let '(s1, ret, _) := qstep s o in
  match ret with Some x => x :: q_items s1 | None => q_items s1 end = q_items s ++ written [o].
Proof. destruct o; cbn; [unfold oq_read; destruct (q_items s)|..]; cbn; rewrite ?app_nil_r; reflexivity. Qed.

Theorem oq_fifo : forall ops s s' outs,
  qrun s ops = Some (s', outs) -> outs ++ q_items s' = q_items s ++ written ops.
Proof.
  induction ops as [|o ops IH]; intros s s' outs H; cbn [qrun] in H.
  - inversion H; subst. cbn. rewrite app_nil_r. reflexivity.
  - destruct (qenabled s o); [|discriminate].
    pose proof (qstep_fifo s o) as St. destruct (qstep s o) as [[s1 ret] nn].
    destruct (qrun s1 ops) as [[s2 outs2]|] eqn:R; [|discriminate].
    inversion H; subst s2 outs; clear H.
    replace (written (o :: ops)) with (written [o] ++ written ops) by (destruct o; reflexivity).
    rewrite app_assoc, <- St. destruct ret; cbn [app]; rewrite (IH _ _ _ R); reflexivity.
Qed.

Lemma qrun_inv (P : oq -> Prop) : forall ops,
  (forall s o, In o ops -> qenabled s o = true -> P s -> P (fst (fst (qstep s o)))) ->
  forall s s' outs, P s -> qrun s ops = Some (s', outs) -> P s'.
Proof.
  induction ops as [|o ops IH]; intros Hstep s s' outs HP H; cbn [qrun] in H.
  - inversion H; subst. exact HP.
  - destruct (qenabled s o) eqn:En; [|discriminate].
    pose proof (Hstep s o (or_introl eq_refl) En HP) as HP1. destruct (qstep s o) as [[s1 ret] nn].
    destruct (qrun s1 ops) as [[s2 outs2]|] eqn:R; [|discriminate]. inversion H; subst s2 outs; clear H.
    apply (IH (fun s o Hin => Hstep s o (or_intror Hin)) s1 s' outs2 HP1 R).
Qed.

Theorem oq_eof_exact : forall s, read_guard s = true ->
  let '(s', ret, _) := oq_read s in
  (ret = None <-> q_items s = []) /\
  (ret = None -> (q_abort s = true \/ q_fsz s <= q_tellg s) /\ oq_eof s' = true /\ oq_good s' = false) /\
  (forall x, ret = Some x -> exists r, q_items s = x :: r /\ q_items s' = r /\ oq_good s' = true /\ oq_eof s' = false).
Proof.
  intros s G. unfold oq_read. destruct (q_items s) as [|x r] eqn:Q.
  - split; [tauto|]. split.
    + intros _. split; [|split; reflexivity].
      unfold read_guard in G. rewrite Q in G. cbn in G. rewrite orb_false_r in G.
      apply orb_prop in G. destruct G as [G|G]; [left; exact G|right; apply Z.leb_le; exact G].
    + intros y Hy. discriminate.
  - split; [split; intros H; discriminate|]. split; [intros H; discriminate|].
    intros y Hy. inversion Hy; subst y. exists r. repeat split.
Qed.

Theorem oq_backpressure : forall s,
  write_guard s = false <-> (q_abort s = false /\ q_cap s <= wrap32 (Z.of_nat (length (q_items s)))).
Proof.
  intros s. unfold write_guard. rewrite orb_false_iff, Z.ltb_ge. tauto.
Qed.

(* no_cfg: neither abort() nor setBufferSize, the two calls after which the queue may hold more than its capacity
   (abort() makes write_guard true at any length, setBufferSize may set the capacity below the length) *)
Definition no_cfg (o : qop) : bool := match o with QAbort | QSetBufferSize _ => false | _ => true end.

Lemma wrap32_small z : 0 <= z < M32 -> wrap32 z = z.
Proof. intros H. unfold wrap32. apply Z.mod_small. exact H. Qed.

Theorem oq_bounded : forall ops s s' outs,
  forallb no_cfg ops = true -> q_abort s = false -> 0 <= q_cap s < M32 ->
  Z.of_nat (length (q_items s)) <= q_cap s ->
  qrun s ops = Some (s', outs) ->
  Z.of_nat (length (q_items s')) <= q_cap s' /\ q_cap s' = q_cap s /\ q_abort s' = false.
Proof.
  intros ops s s' outs Hc Ha Hcap Hl H.
  apply (qrun_inv (fun t => Z.of_nat (length (q_items t)) <= q_cap t /\ q_cap t = q_cap s /\ q_abort t = false) ops)
    with (s := s) (outs := outs); [|auto|exact H].
  intros t o Hin En (Il & Ic & Ia). apply (proj1 (forallb_forall _ _) Hc) in Hin.
  destruct o; try discriminate; cbn.
  - unfold oq_read. destruct (q_items t); cbn [fst q_items q_cap q_abort length] in *; auto. split; [lia|auto].
  - (* write took effect without abort: the queue was below its capacity *)
    cbn [qenabled] in En. unfold write_guard in En. rewrite Ia in En. apply Z.ltb_lt in En.
    rewrite wrap32_small in En by lia. rewrite app_length. cbn [length]. split; [lia|auto].
  - auto.
Qed.

(* tellp - tellg is the number of objects queued, as long as tellp has not wrapped *)
Definition counts_ok (s : oq) : Prop :=
  0 <= q_tellg s /\ q_tellp s = q_tellg s + Z.of_nat (length (q_items s)) /\ q_tellp s < M32.

Lemma oq_counts_step : forall s o, counts_ok s -> q_tellp s < M32 - 1 ->
  counts_ok (fst (fst (qstep s o))).
Proof.
  intros s o (H0 & H1 & H2) Hb. unfold counts_ok.
  destruct o; cbn [qstep]; [| |cbn; auto..].
  - unfold oq_read. destruct (q_items s) as [|x r] eqn:Q; cbn [fst q_tellg q_tellp q_items length] in *.
    + auto.
    + rewrite wrap32_small by lia. lia.
  - unfold oq_write. cbn [fst q_tellg q_tellp q_items]. rewrite app_length. cbn [length].
    rewrite wrap32_small by lia. lia.
Qed.

Theorem oq_abort_releases : forall s,
  let '(s', notes) := oq_abort s in
  read_guard s' = true /\ write_guard s' = true /\ In CV_tellg notes /\ In CV_tellp notes.
Proof.
  intros s. cbn. repeat split; auto.
Qed.

Lemma abort_sticky_step : forall s o, q_abort s = true -> q_abort (fst (fst (qstep s o))) = true.
Proof.
  intros s o H. destruct o; cbn [qstep]; try (cbn; first [exact H | reflexivity]).
  unfold oq_read. destruct (q_items s); cbn; exact H.
Qed.

Theorem oq_abort_sticky : forall ops s s' outs,
  q_abort s = true -> qrun s ops = Some (s', outs) ->
  q_abort s' = true /\ read_guard s' = true /\ write_guard s' = true.
Proof.
  intros ops s s' outs Ha H. unfold read_guard, write_guard.
  rewrite (qrun_inv (fun t => q_abort t = true) ops (fun t o _ _ => abort_sticky_step t o) s s' outs Ha H). auto.
Qed.

Corollary oq_abort_never_blocks : forall ops s s' outs o,
  q_abort s = true -> qrun s ops = Some (s', outs) -> qenabled s' o = true.
Proof.
  intros ops s s' outs o Ha H. destruct (oq_abort_sticky ops s s' outs Ha H) as (_ & R & W).
  destruct o; cbn; auto.
Qed.

(* every call but setBufferSize, which notifies nobody (oq_setBufferSize_no_wakeup_refuted) *)
Definition pipeline_op (o : qop) : bool := match o with QSetBufferSize _ => false | _ => true end.

(* A waiter in read() sleeps on tellpChanged with predicate read_guard; a waiter in write() sleeps
   on tellgChanged with predicate write_guard (in the code: QueueEq.read_eq blocks with MBlocked CV_tellp,
   write_eq with MBlocked CV_tellg).  Whenever a call of read / write / abort /
   setFileSize takes effect and turns one of the predicates from false to true, it notifies the
   condition variable the corresponding waiters sleep on. *)
Theorem oq_no_lost_wakeup : forall s o, pipeline_op o = true -> qenabled s o = true ->
  let '(s', _, notes) := qstep s o in
  (read_guard s = false -> read_guard s' = true -> In CV_tellp notes) /\
  (write_guard s = false -> write_guard s' = true -> In CV_tellg notes).
Proof.
  intros s o Hp En. destruct o; cbn [qstep pipeline_op] in *; try discriminate.
  - unfold oq_read. destruct (q_items s) as [|x r] eqn:Q; (split; intros A B; [cbn [qenabled] in En; congruence|]).
    + unfold write_guard in *. cbn [q_abort q_items q_cap] in *. congruence.
    + left. reflexivity.
  - unfold oq_write. split; intros A B.
    + left. reflexivity.
    + cbn [qenabled] in En. congruence.
  - cbn. split; intros _ _; auto.
  - cbn. split; intros A B.
    + left. reflexivity.
    + unfold write_guard in *. cbn [q_abort q_items q_cap] in *. congruence.
Qed.

(* setBufferSize is configuration: it notifies nobody, so enlarging the capacity while a producer
   is asleep would not wake it.  File calls it only in its constructor, before any thread exists. *)
Theorem oq_setBufferSize_no_wakeup_refuted : exists s n,
  let '(s', _, notes) := qstep s (QSetBufferSize n) in
  write_guard s = false /\ write_guard s' = true /\ ~ In CV_tellg notes.
Proof.
  exists {| q_abort := false; q_items := [1]; q_tellg := 0; q_tellp := 1; q_cap := 1; q_fsz := M32 - 1; q_rd := 0 |}, 2.
  cbn. split; [reflexivity|]. split; [reflexivity|]. intros H; exact H.
Qed.

Theorem oq_destroy_releases : forall s,
  let '(s', del) := oq_destroy s in del = q_items s /\ q_items s' = [] /\ q_abort s' = true.
Proof. intros s. cbn. auto. Qed.

Example oq_history_example :
  qrun oq_init [QSetBufferSize 2; QWrite 7; QWrite 8; QRead; QWrite 9; QSetFileSize 3; QRead; QRead; QRead]
  = Some ({| q_abort := false; q_items := []; q_tellg := 3; q_tellp := 3; q_cap := 2; q_fsz := 3; q_rd := 6 |}, [7; 8; 9]).
Proof. vm_compute. reflexivity. Qed.
Example oq_blocked_example :
  qrun oq_init [QSetBufferSize 2; QWrite 7; QWrite 8; QWrite 9] = None /\ qrun oq_init [QRead] = None.
Proof. vm_compute. auto. Qed.
