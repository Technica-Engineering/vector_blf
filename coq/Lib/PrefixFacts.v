(* PrefixFacts.v — what a file cut at an arbitrary byte still contains (C08, specification side):
   a cut through  H ++ C1 ++ ... ++ Cn  keeps `whole k bs` complete containers followed
   by a proper prefix of the next one, and `whole` is monotone in the cut position. *)
From Coq Require Import List ZArith Lia.
Import ListNotations.

Section Prefix.
Context {A : Type}.

(* number of whole blocks that fit into the first k elements of concat bs *)
Fixpoint whole (k : nat) (bs : list (list A)) : nat :=
  match bs with
  | [] => 0
  | b :: r => if Nat.leb (length b) k then S (whole (k - length b) r) else 0
  end.

Lemma whole_le k bs : whole k bs <= length bs.
Proof. revert k. induction bs as [|b r IH]; intros k; cbn; [lia|]. destruct (Nat.leb (length b) k); [specialize (IH (k - length b)); lia|lia]. Qed.

Theorem cut_structure : forall bs k,
  let j := whole k bs in
  exists part, firstn k (concat bs) = concat (firstn j bs) ++ part /\
    match nth_error bs j with
    | Some nxt => exists rest, nxt = part ++ rest /\ rest <> []
    | None => part = []
    end.
Proof.
  induction bs as [|b r IH]; intros k; cbn [whole concat].
  - exists []. destruct k; cbn; auto.
  - destruct (Nat.leb (length b) k) eqn:E.
    + apply Nat.leb_le in E. destruct (IH (k - length b)) as (part & H1 & H2).
      exists part. split.
      * rewrite firstn_app. rewrite firstn_all2 by lia. cbn [firstn concat]. rewrite <- app_assoc. f_equal. exact H1.
      * cbn [nth_error]. exact H2.
    + apply Nat.leb_gt in E. exists (firstn k b). split.
      * rewrite firstn_app. replace (k - length b) with 0 by lia. cbn. rewrite app_nil_r. reflexivity.
      * cbn [nth_error]. exists (skipn k b). split; [symmetry; apply firstn_skipn|].
        intros C. apply (f_equal (@length A)) in C. rewrite skipn_length in C. cbn in C. lia.
Qed.

Theorem whole_monotone : forall bs k k', k <= k' -> whole k bs <= whole k' bs.
Proof.
  induction bs as [|b r IH]; intros k k' H; cbn; [lia|].
  destruct (Nat.leb (length b) k) eqn:E.
  - apply Nat.leb_le in E. replace (Nat.leb (length b) k') with true by (symmetry; apply Nat.leb_le; lia).
    specialize (IH (k - length b) (k' - length b)). lia.
  - lia.
Qed.

Lemma whole_all bs : whole (length (concat bs)) bs = length bs.
Proof.
  induction bs as [|b r IH]; cbn; [reflexivity|].
  rewrite app_length. replace (Nat.leb (length b) (length b + length (concat r))) with true by (symmetry; apply Nat.leb_le; lia).
  replace (length b + length (concat r) - length b) with (length (concat r)) by lia. rewrite IH. reflexivity.
Qed.
End Prefix.
