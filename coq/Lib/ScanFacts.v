(* ScanFacts.v — the signature search of ObjectHeaderBase::read finds the FIRST occurrence of the
   object signature at or after the get position, whatever precedes it (C09). *)
From VB Require Import Base IR Sem BaseFacts StreamFacts.
Local Open Scope Z_scope.

(* the constants as the source has them *)
Definition SIG : Z := 1245859660.                      (* 0x4A424F4C "LOBJ" *)
Definition SIGB : list Z := [76; 79; 66; 74].
(* (mask, value, seek) on the 4-byte window read as a little-endian word, tried in this order:
   0xFFFFFF00, 0x424F4C00: bytes 1..3 are "LOB", seek -3;  0xFFFF0000, 0x4F4C0000: bytes 2..3 are "LO", seek -2;
   0xFF000000, 0x4C000000: byte 3 is 'L', seek -1 — each back to the 'L' at which the signature may still start (abs_rule) *)
Definition rules_std : list (Z * Z * Z) :=
  [(4294967040, 1112493056, -3); (4294901760, 1330380800, -2); (4278190080, 1275068416, -1)].
(* sf: what ends the search after a mismatch (see Sem.scan_stop) — the theorems here hold for either choice *)
Definition sp_std (f : Z) (sf : bool) : scan_params := {| sp_sig := SIG; sp_rules := rules_std; sp_field := f; sp_stop_on_fail := sf |}.

Lemma sig_bytes : le_dec SIGB = SIG. Proof. reflexivity. Qed.

Lemma mask_high k t : (k = 8 \/ k = 16 \/ k = 24) -> 0 <= t < 2 ^ 32 ->
  Z.land (2 ^ 32 - 2 ^ k) t = (t / 2 ^ k) * 2 ^ k.
Proof.
  intros Hk Ht.
  assert (Hm : 2 ^ 32 - 2 ^ k = Z.land (Z.ones 32) (Z.lnot (Z.ones k))) by (destruct Hk as [->|[->| ->]]; reflexivity).
  rewrite Hm. rewrite (Z.land_comm (Z.ones 32)). rewrite <- Z.land_assoc. rewrite (Z.land_comm (Z.ones 32) t).
  rewrite Z.land_ones by lia. rewrite Z.mod_small by lia.
  rewrite Z.land_comm. rewrite <- Z.ldiff_land. rewrite Z.ldiff_ones_r by lia.
  rewrite Z.shiftl_mul_pow2 by lia. rewrite Z.shiftr_div_pow2 by lia. reflexivity.
Qed.

Definition byte (b : Z) : Prop := 0 <= b < 256.

(* what the three rules say about a 4-byte window, byte by byte *)
Definition abs_rule (b1 b2 b3 : Z) : Z :=
  if (b1 =? 76) && (b2 =? 79) && (b3 =? 66) then -3
  else if (b2 =? 76) && (b3 =? 79) then -2
  else if b3 =? 76 then -1 else 0.

Lemma le_dec4 b0 b1 b2 b3 : le_dec [b0; b1; b2; b3] = b0 + 256 * b1 + 65536 * b2 + 16777216 * b3.
Proof. cbn [le_dec]. lia. Qed.

Lemma scan_rule_abs b0 b1 b2 b3 : byte b0 -> byte b1 -> byte b2 -> byte b3 ->
  scan_rule rules_std (le_dec [b0; b1; b2; b3]) = abs_rule b1 b2 b3.
Proof.
  unfold byte. intros H0 H1 H2 H3. rewrite le_dec4.
  set (t := b0 + 256 * b1 + 65536 * b2 + 16777216 * b3).
  assert (Ht : 0 <= t < 2 ^ 32) by (unfold t; lia).
  unfold scan_rule, rules_std.
  change 4294967040 with (2 ^ 32 - 2 ^ 8). change 4294901760 with (2 ^ 32 - 2 ^ 16). change 4278190080 with (2 ^ 32 - 2 ^ 24).
  rewrite !mask_high by (auto; lia).
  change (2 ^ 8) with 256. change (2 ^ 16) with 65536. change (2 ^ 24) with 16777216.
  (* each masked comparison is a comparison of the bytes above the mask *)
  replace (t / 256 * 256 =? 1112493056) with ((b1 =? 76) && (b2 =? 79) && (b3 =? 66)) by (unfold t; Z.div_mod_to_equations; lia).
  replace (t / 65536 * 65536 =? 1330380800) with ((b2 =? 76) && (b3 =? 79)) by (unfold t; Z.div_mod_to_equations; lia).
  replace (t / 16777216 * 16777216 =? 1275068416) with (b3 =? 76) by (unfold t; Z.div_mod_to_equations; lia).
  reflexivity.
Qed.

Lemma le_dec4_sig b0 b1 b2 b3 : byte b0 -> byte b1 -> byte b2 -> byte b3 ->
  (le_dec [b0; b1; b2; b3] =? SIG) = (b0 =? 76) && (b1 =? 79) && (b2 =? 66) && (b3 =? 74).
Proof. unfold byte, SIG. intros. rewrite le_dec4. lia. Qed.

Lemma abs_rule_range b1 b2 b3 : -3 <= abs_rule b1 b2 b3 <= 0.
Proof. unfold abs_rule. destruct (_ && _); [lia|]. destruct (_ && _); [lia|]. destruct (_ =? _); lia. Qed.

(* a window that is not the signature: the cursor moves to the next position at which the signature can still start *)
Lemma scan_step f sf n tmp s b0 b1 b2 b3 r :
  nstream s -> s_after s = b0 :: b1 :: b2 :: b3 :: r -> byte b0 -> byte b1 -> byte b2 -> byte b3 ->
  [b0; b1; b2; b3] <> SIGB ->
  scan_loop (sp_std f sf) (S n) tmp s =
  scan_loop (sp_std f sf) n (le_dec [b0; b1; b2; b3]) (advance (4 + abs_rule b1 b2 b3) s true false).
Proof.
  intros Hs Ha H0 H1 H2 H3 Hne. rewrite (scan_full _ n tmp s [b0; b1; b2; b3] r Hs Ha eq_refl). cbn [sp_std sp_sig sp_rules].
  rewrite le_dec4_sig by assumption. destruct (_ && _) eqn:E.
  - exfalso. apply Hne. unfold SIGB. f_equal; [|f_equal; [|f_equal; [|f_equal]]]; lia.
  - rewrite scan_rule_abs by assumption. pose proof (abs_rule_range b1 b2 b3).
    destruct (Z.eqb_spec (abs_rule b1 b2 b3) 0) as [->|]; [reflexivity|].
    rewrite seek_back_advance; [reflexivity|exact Hs|rewrite Ha, !zlen_cons; pose proof (zlen_nonneg r)|..]; lia.
Qed.

Definition no_sig_before (n : nat) (a : list Z) : Prop :=
  forall i, (i < n)%nat -> firstn 4 (skipn i a) <> SIGB.

Lemma no_sig_shift k n a : no_sig_before n a -> no_sig_before (n - k) (skipn k a).
Proof. intros H i Hi. rewrite skipn_skipn'. apply H. lia. Qed.

(* the window at the start of  pre ++ "LOBJ" ++ rest,  pre not empty: its bytes, and that the move the rules make for it
   does not pass the signature — with fewer than 4 bytes in front, the window ends with that many bytes less of "LOBJ", and the
   rule that fits is the one that moves the cursor to its 'L' *)
Lemma first_window pre rest : Forall byte pre -> (0 < length pre)%nat -> exists b0 b1 b2 b3 r,
  pre ++ SIGB ++ rest = b0 :: b1 :: b2 :: b3 :: r /\ byte b0 /\ byte b1 /\ byte b2 /\ byte b3 /\
  4 + abs_rule b1 b2 b3 <= zlen pre.
Proof.
  assert (B : forall x, In x SIGB -> byte x) by (unfold SIGB, byte; cbn; intros x H; lia).
  intros Hb Hne. destruct pre as [|p0 [|p1 [|p2 [|p3 pre]]]]; [cbn in Hne; lia| | | |];
    repeat match goal with H : Forall _ (_ :: _) |- _ => inversion H; subst; clear H end;
    cbn [app SIGB]; do 5 eexists; (split; [reflexivity|]); repeat (split; [first [assumption|apply B; cbn; auto 6]|]).
  - reflexivity.
  - unfold abs_rule. destruct (p1 =? 76); reflexivity.
  - unfold abs_rule. destruct (p1 =? 76), (p2 =? 79), (p2 =? 76); reflexivity.
  - pose proof (abs_rule_range p1 p2 p3). rewrite !zlen_cons. pose proof (zlen_nonneg pre). lia.
Qed.

(* Whatever bytes precede it, the loop stops exactly behind the FIRST occurrence of the signature:
   s_after s = pre ++ "LOBJ" ++ rest, no window starting inside pre is the signature (pre may end
   with any proper prefix of the signature, may contain 'L', "LO", "LOB" anywhere), any stale tmp. *)
Theorem scan_finds_first : forall f sf fuel pre rest s tmp,
  nstream s -> Forall byte pre -> s_after s = pre ++ SIGB ++ rest ->
  no_sig_before (length pre) (pre ++ SIGB ++ rest) -> (length pre < fuel)%nat -> 0 <= tmp ->
  scan_loop (sp_std f sf) fuel tmp s = Ok (SIG, advance (zlen pre + 4) s true false).
Proof.
  intros f sf. induction fuel as [|n IH]; intros pre rest s tmp Hs Hb Ha Hno Hf Ht; [lia|].
  destruct (Nat.eq_dec (length pre) 0) as [E|Hne].
  - (* the signature stands at the cursor *)
    apply length_zero_iff_nil in E. subst pre. rewrite (scan_full _ n tmp s SIGB rest Hs Ha eq_refl). reflexivity.
  - destruct (first_window pre rest Hb) as (b0 & b1 & b2 & b3 & r & Hw & B0 & B1 & B2 & B3 & Hk); [lia|].
    rewrite (scan_step f sf n tmp s b0 b1 b2 b3 r Hs (eq_trans Ha Hw) B0 B1 B2 B3).
    2:{ specialize (Hno 0%nat). rewrite Hw in Hno. apply Hno. lia. }
    (* the search goes on k bytes further, with what is left of pre in front of the signature *)
    pose proof (abs_rule_range b1 b2 b3). remember (4 + abs_rule b1 b2 b3) as k eqn:Ek.
    assert (Hkn : (Z.to_nat k <= length pre)%nat) by (unfold zlen in Hk; lia).
    rewrite (IH (skipn (Z.to_nat k) pre) rest).
    + rewrite advance_advance by (unfold zlen; lia).
      replace (k + (zlen (skipn (Z.to_nat k) pre) + 4)) with (zlen pre + 4); [reflexivity|]. unfold zlen in *. rewrite skipn_length. lia.
    + apply nstream_advance; [exact Hs|]. rewrite Ha, zlen_app. pose proof (zlen_nonneg (SIGB ++ rest)). lia.
    + apply Forall_forall. intros x Hx. rewrite Forall_forall in Hb. apply Hb.
      rewrite <- (firstn_skipn (Z.to_nat k) pre). apply in_or_app. right. exact Hx.
    + unfold advance. cbn [s_after]. rewrite Ha. apply skipn_app_le. exact Hkn.
    + rewrite <- skipn_app_le, skipn_length by exact Hkn. apply no_sig_shift. exact Hno.
    + rewrite skipn_length. lia.
    + rewrite le_dec4. unfold byte in *. lia.
Qed.

(* non-vacuity: "xLOLOBLOBJ" — the first signature starts at offset 6 *)
Example scan_example :
  scan_loop (sp_std 0 true) 20 0 (mk_ustream [120; 76; 79; 76; 79; 66; 76; 79; 66; 74; 1; 2]) =
  Ok (SIG, advance 10 (mk_ustream [120; 76; 79; 76; 79; 66; 76; 79; 66; 74; 1; 2]) true false).
Proof. vm_compute. reflexivity. Qed.
