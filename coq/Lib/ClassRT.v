(* ClassRT.v — from the pairing theorem to whole classes: leading length derivations of write(),
   representability guard, and the object-level round trip. *)
From VB Require Import Base IR Sem BaseFacts StreamFacts EvalFacts CallFacts Roundtrip.
Local Open Scope Z_scope.
(* the `clear`s: see EvalFacts.v *)
Set Default Proof Using "Type".

Section CRT.
Variable cs : classes.
Variable call : target -> mid -> state -> res (Z * ity).
Variable sp : scan_params.
Variable cap : Z.
Hypothesis cap_ge : 2 ^ 28 <= cap.
Hypothesis sig_range : 0 <= sp_sig sp < 2 ^ 32.

Notation ff := (find_field cs).

(* write() first stores the containers' sizes in their length members (AppText: textLength = static_cast<uint32_t>(text.size())),
   then emits: A is that prefix of assignments, We the emission *)
Fixpoint split_pre (W : prog) : list (Z * expr) * prog :=
  match W with
  | PAssign f e k => let '(A, We) := split_pre k in ((f, e) :: A, We)
  | _ => ([], W)
  end.

Definition scalar_ty (f : Z) : option ity :=
  match ff f with Some x => match f_kind x with KScalar t => Some t | _ => None end | None => None end.

(* a derivation  len := (T) <count of container g>  *)
Definition derivation (fe : Z * expr) : option (Z * ity * cnt) :=
  match snd fe with
  | ECast t a => match cnt_of [] a, scalar_ty (fst fe) with
                 | Some c, Some t' => if ity_eq_dec t t' then Some (fst fe, t, c) else None
                 | _, _ => None end
  | _ => None
  end.

Definition pre_M (A : list (Z * expr)) : lenmap :=
  flat_map (fun fe => match derivation fe with Some (g, _, c) => [(g, c)] | None => [] end) A.

Definition cnt_field (c : cnt) : Z := match c with CSize f _ => f end.
Definition cnt_k (c : cnt) : Z := match c with CSize _ k => k end.

(* static side conditions on the pre-processing: targets are distinct scalars, derivations talk
   about vector or array members with a small multiplier *)
Definition pre_ok (A : list (Z * expr)) : bool :=
  forallb (fun fe => match scalar_ty (fst fe) with Some _ => true | None => false end) A &&
  (fix nodup (l : list Z) := match l with [] => true | x :: r => negb (existsb (Z.eqb x) r) && nodup r end) (map fst A) &&
  forallb (fun fe => match derivation fe with
                     | Some (_, _, c) => (is_vec cs (cnt_field c) || is_arr cs (cnt_field c)) && (0 <? cnt_k c) && (cnt_k c <=? 8)
                     | None => true end) A.

(* the property's representability proviso: every derived length fits its length member *)
Definition pre_guard (A : list (Z * expr)) (s : state) : Prop :=
  forall fe g t c, In fe A -> derivation fe = Some (g, t, c) -> in_type t (cnt_val cs s c) = true.

Fixpoint run_pre (A : list (Z * expr)) (s : state) : res state :=
  match A with
  | [] => Ok s
  | (f, e) :: r =>
      match scalar_ty f with
      | Some t => do v <- eval_as cs call t s no_locals e; run_pre r (upd s f (VInt v))
      | None => Err EType
      end
  end.

Lemma run_w_split W : forall s A We, split_pre W = (A, We) ->
  run_w cs call cap W s no_locals = (do s' <- run_pre A s; run_w cs call cap We s' no_locals).
Proof.
  induction W; intros s A We H; cbn [split_pre] in H;
    try (injection H as <- <-; reflexivity).
  destruct (split_pre W) as [A' We'] eqn:E. injection H as <- <-.
  cbn [run_w run_pre]. unfold scalar_ty.
  destruct (ff f) as [x|]; [|reflexivity]. destruct (f_kind x); try reflexivity.
  destruct (eval_as cs call t s no_locals e); [|reflexivity]. cbn [bind].
  apply IHW. reflexivity.
Qed.

Lemma run_pre_cons g e r s s' : run_pre ((g, e) :: r) s = Ok s' ->
  exists x t v, ff g = Some x /\ f_kind x = KScalar t /\ eval_as cs call t s no_locals e = Ok v /\ in_type t v = true /\
    run_pre r (upd s g (VInt v)) = Ok s'.
Proof.
  cbn [run_pre]. unfold scalar_ty. destruct (ff g) as [x|]; [|discriminate]. destruct (f_kind x) as [t| |] eqn:Hk; try discriminate.
  destruct (eval_as cs call t s no_locals e) as [v|] eqn:Ev; [|discriminate]. cbn [bind]. intros H. exists x, t, v.
  split; [reflexivity|]. split; [exact Hk|]. split; [exact Ev|]. split; [|exact H].
  exact (eval_as_in_type cs call t s no_locals e v Ev).
Qed.

(* in particular the containers: none is a target (container_not_scalar) *)
Lemma run_pre_frame A : forall s s', run_pre A s = Ok s' ->
  forall f, ~ In f (map fst A) -> s' f = s f.
Proof.
  induction A as [|[g e] r IH]; intros s s' H f Hf; [injection H as <-; reflexivity|].
  destruct (run_pre_cons _ _ _ _ _ H) as (x & t & v & _ & _ & _ & _ & Hr).
  rewrite (IH _ _ Hr f) by (intros Hin; apply Hf; right; exact Hin).
  apply upd_neq. intros ->. apply Hf. left. reflexivity.
Qed.

(* every step stores a value of the member's type, so shapes and definedness survive *)
Lemma run_pre_keeps A : forall s s', run_pre A s = Ok s' -> wf_state cs s ->
  wf_state cs s' /\ forall f, s f <> VUndef -> s' f <> VUndef.
Proof.
  induction A as [|[g e] r IH]; intros s s' H Hw; [injection H as <-; auto|].
  destruct (run_pre_cons _ _ _ _ _ H) as (x & t & v & Hx & Hk & _ & Hv & Hr).
  destruct (IH _ _ Hr) as [Hw' Hd'].
  - exact (wf_upd_int cs s g x t v Hw Hx Hk Hv).
  - split; [exact Hw'|]. intros f Hf. apply Hd'. unfold upd. destruct (f =? g); [discriminate|exact Hf].
Qed.

Lemma container_not_scalar f g t : (is_vec cs f || is_arr cs f) = true -> scalar_ty g = Some t -> f <> g.
Proof.
  intros Hc Hs E. subst g. unfold scalar_ty in Hs. unfold is_vec, is_arr, kind_of in Hc.
  destruct (ff f) as [x|]; [|discriminate]. cbn [option_map] in Hc.
  destruct (f_kind x); try discriminate; cbn in Hc; discriminate.
Qed.

Lemma cnt_val_upd s g v f k : f <> g -> cnt_val cs (upd s g v) (CSize f k) = cnt_val cs s (CSize f k).
Proof. intros H. unfold cnt_val, elems. rewrite upd_neq by exact H. reflexivity. Qed.

Lemma cont_ok_ext s s' f : s' f = s f -> cont_ok cs s f -> cont_ok cs s' f.
Proof. clear sig_range. intros E (x & b & H1 & H2 & H3). exists x, b. rewrite E. tauto. Qed.

(* what the static check gives for one entry *)
Definition entry_ok (fe : Z * expr) : Prop :=
  (exists t, scalar_ty (fst fe) = Some t) /\
  (forall g t c, derivation fe = Some (g, t, c) ->
     (is_vec cs (cnt_field c) || is_arr cs (cnt_field c)) = true /\ 0 < cnt_k c <= 8).

Lemma derivation_fst fe g t c : derivation fe = Some (g, t, c) -> g = fst fe /\ scalar_ty g = Some t /\
  exists a, snd fe = ECast t a /\ cnt_of [] a = Some c.
Proof.
  unfold derivation. destruct (snd fe) as [| | | | | | | | |t' a|]; try discriminate.
  destruct (cnt_of [] a) as [c'|] eqn:Ec; [|discriminate].
  destruct (scalar_ty (fst fe)) as [t''|] eqn:Et; [|discriminate].
  destruct (ity_eq_dec t' t'') as [Eq|]; [|discriminate]. subst t''. intros H. injection H as Hg Ht Hc. subst g t c.
  split; [reflexivity|]. split; [exact Et|]. exists a. split; [reflexivity|exact Ec].
Qed.

Lemma pre_M_sound A : forall s s',
  run_pre A s = Ok s' ->
  Forall entry_ok A -> NoDup (map fst A) ->
  wf_state cs s ->
  (forall fe g t c, In fe A -> derivation fe = Some (g, t, c) ->
     (exists b, s (cnt_field c) = VBytes b) /\ in_type t (cnt_val cs s c) = true) ->
  M_sound cs (pre_M A) s'.
Proof.
  induction A as [|[g0 e0] r IH]; intros s s' Hrun Hok Hnd Hw Hg.
  - intros g c H. discriminate.
  - inversion Hok as [|? ? [_ Hd0] Hokr]; subst. inversion Hnd as [|? ? Hnotin Hndr]; subst.
    destruct (run_pre_cons _ _ _ _ _ Hrun) as (x & t0 & v0 & Hx & Hkx & Ev & Hv0t & Hrun').
    assert (Ht0 : scalar_ty g0 = Some t0) by (unfold scalar_ty; rewrite Hx, Hkx; reflexivity).
    clear Hrun. rename Hrun' into Hrun. set (s1 := upd s g0 (VInt v0)) in *.
    assert (Hw1 : wf_state cs s1) by exact (wf_upd_int cs s g0 x t0 v0 Hw Hx Hkx Hv0t).
    (* the containers the later entries talk about are not g0: their premises carry over to s1 *)
    assert (Hg1 : forall fe g t c, In fe r -> derivation fe = Some (g, t, c) ->
              (exists b, s1 (cnt_field c) = VBytes b) /\ in_type t (cnt_val cs s1 c) = true).
    { intros fe g t c Hin Hder. destruct (Hg fe g t c (or_intror Hin) Hder) as [Hb Hty].
      rewrite Forall_forall in Hokr. destruct (Hokr fe Hin) as [_ Hd]. destruct (Hd g t c Hder) as [Hcont Hk].
      assert (Hne : cnt_field c <> g0) by (eapply container_not_scalar; eauto).
      destruct c as [f k]. cbn [cnt_field] in *. unfold s1. rewrite cnt_val_upd, upd_neq by exact Hne. auto. }
    pose proof (IH s1 s' Hrun Hokr Hndr Hw1 Hg1) as IHs.
    intros g c Hlook. unfold pre_M in Hlook. cbn [flat_map] in Hlook.
    destruct (derivation (g0, e0)) as [[[gd td] cd]|] eqn:Hder; [|apply IHs; exact Hlook].
    cbn [app mlook] in Hlook.
    destruct (derivation_fst _ _ _ _ Hder) as (Egd & Etd & a & Esnd & Ecnt). cbn [fst snd] in Egd, Esnd. subst gd e0.
    rewrite Ht0 in Etd. injection Etd as <-.
    destruct (Z.eqb_spec g0 g) as [<-|Hne]; [|apply IHs; exact Hlook].
    (* the entry for g0 itself: it was given the count of its container in s, and neither is touched afterwards *)
    injection Hlook as <-.
    destruct (Hd0 g0 t0 cd eq_refl) as [Hcont Hk].
    destruct (Hg (g0, ECast t0 a) g0 t0 cd (or_introl eq_refl) Hder) as [[b Hb] Hty].
    destruct cd as [f k]. cbn [cnt_field cnt_k] in *.
    assert (Hne : f <> g0) by (eapply container_not_scalar; eauto).
    assert (Hcok : cont_ok cs s f) by (eapply cont_ok_of; eauto).
    destruct (cnt_of_sound cs call [] a s no_locals f k Ecnt (M_sound_nil cs s) Hcok) as (_ & ta & Hev).
    unfold eval_as in Ev. cbn [eval] in Ev. rewrite Hev in Ev. cbn [bind fst] in Ev. injection Ev as Ev.
    assert (Hv0 : v0 = cnt_val cs s (CSize f k)).
    { rewrite <- Ev. cbn [cnt_val]. rewrite norm_id by apply norm_in_type. apply norm_id. exact Hty. }
    assert (Hs'g : s' g0 = VInt v0) by (rewrite (run_pre_frame r s1 s' Hrun g0 Hnotin); apply upd_eq).
    assert (Hs'f : s' f = s f).
    { rewrite (run_pre_frame r s1 s' Hrun f); [apply upd_neq; exact Hne|].
      intros Hin. apply in_map_iff in Hin. destruct Hin as [fe [Efe Hin]].
      rewrite Forall_forall in Hokr. destruct (Hokr fe Hin) as [[t' Ht'] _]. rewrite Efe in Ht'.
      eapply container_not_scalar; eauto. }
    exists x, t0. split; [exact Hx|]. split; [exact Hkx|]. split.
    + rewrite Hs'g, Hv0. f_equal. unfold cnt_val, elems. rewrite Hs'f. reflexivity.
    + split; [apply (cont_ok_ext s s' f Hs'f Hcok)|exact Hk].
Qed.

Lemma nodup_b l :
  (fix nodup (l : list Z) := match l with [] => true | x :: r => negb (existsb (Z.eqb x) r) && nodup r end) l = true ->
  NoDup l.
Proof.
  induction l as [|x r IH]; intros H; [constructor|].
  apply andb_prop in H. destruct H as [H1 H2]. constructor; [|apply IH; exact H2].
  apply not_in_known. exact H1.
Qed.

Lemma pre_ok_entries A : pre_ok A = true -> Forall entry_ok A /\ NoDup (map fst A).
Proof.
  unfold pre_ok. intros H. apply andb_prop in H. destruct H as [H H3]. apply andb_prop in H. destruct H as [H1 H2].
  split; [|apply nodup_b; exact H2].
  rewrite forallb_forall in H1, H3. apply Forall_forall. intros fe Hin.
  specialize (H1 fe Hin). specialize (H3 fe Hin). split.
  - destruct (scalar_ty (fst fe)) as [t|]; [exists t; reflexivity|discriminate].
  - intros g t c Hd. rewrite Hd in H3. apply andb_prop in H3. destruct H3 as [H3 Hk2].
    apply andb_prop in H3. destruct H3 as [Hc Hk1]. split; [exact Hc|lia].
Qed.

Definition deriv_conts (A : list (Z * expr)) : list Z :=
  flat_map (fun fe => match derivation fe with Some (_, _, c) => [cnt_field c] | None => [] end) A.

(* the pre-processing as a whole, from the caller's state: the derived members hold their counts, nothing else has changed *)
Lemma run_pre_facts A s s1 : pre_ok A = true -> run_pre A s = Ok s1 ->
  wf_state cs s -> defined_on (deriv_conts A) s -> pre_guard A s ->
  M_sound cs (pre_M A) s1 /\ wf_state cs s1 /\ (forall f, s f <> VUndef -> s1 f <> VUndef) /\
  (forall f, ~ In f (map fst A) -> s1 f = s f).
Proof.
  intros Hpre Epre Hws Hds Hguard. destruct (pre_ok_entries A Hpre) as [Hent Hnd].
  destruct (run_pre_keeps A s s1 Epre Hws) as [Hw1 Hd1].
  split; [|split; [exact Hw1|split; [exact Hd1|exact (run_pre_frame A s s1 Epre)]]].
  apply (pre_M_sound A s s1 Epre Hent Hnd Hws). intros fe g t c Hin Hder. split; [|eapply Hguard; eauto].
  rewrite Forall_forall in Hent. destruct (proj2 (Hent fe Hin) g t c Hder) as [Hcont _].
  apply (cont_bytes cs s _ Hws Hcont). apply Hds. unfold deriv_conts. apply in_flat_map. exists fe. split; [exact Hin|].
  rewrite Hder. left. reflexivity.
Qed.

(* members written on any branch of an emitter (Roundtrip.emitted: on the branch taken in s) *)
Fixpoint wfields (W : prog) : list Z :=
  match W with
  | PWrite f k => f :: wfields k
  | PWriteBytes f _ k => f :: wfields k
  | PZero _ k => wfields k
  | PIf _ a b => wfields a ++ wfields b
  | PAssign _ _ k => wfields k
  | _ => []
  end.

Lemma emitted_wfields W : forall s f, In f (emitted cs call W s) -> In f (wfields W).
Proof.
  induction W; intros s g Hg; cbn [emitted wfields] in *; try contradiction.
  - destruct Hg as [<-|Hg]; [left; reflexivity|right; eapply IHW; exact Hg].
  - destruct Hg as [<-|Hg]; [left; reflexivity|right; eapply IHW; exact Hg].
  - eapply IHW; exact Hg.
  - destruct (kind_of cs f) as [[t| |]|]; try contradiction.
    destruct (eval_as cs call t s no_locals e); [|contradiction]. eapply IHW; exact Hg.
  - destruct (eval cs call s no_locals c) as [x|]; [|contradiction].
    apply in_or_app. destruct (fst x =? 0); [right; eapply IHW2|left; eapply IHW1]; exact Hg.
Qed.

(* no leading assignment targets the signature member: it still holds the signature when the emission starts
   (object_write_facts) *)
Definition class_rt_ok (W R : prog) : bool :=
  let '(A, We) := split_pre W in
  pre_ok A && negb (existsb (Z.eqb (sp_field sp)) (map fst A)) && pair_wr cs sp (pre_M A) [] We R.

(* what write() leaves behind: the emission part run from the state with the derived members filled in — which
   hold exactly the counts of their containers — and otherwise the caller's state *)
Lemma object_write_facts W R : class_rt_ok W R = true ->
  let A := fst (split_pre W) in let We := snd (split_pre W) in
  forall s s' bytes,
    run_w cs call cap W s no_locals = Ok (s', bytes) ->
    wf_state cs s -> defined_on (wfields We ++ deriv_conts A) s ->
    s (sp_field sp) = VInt (sp_sig sp) -> pre_guard A s ->
  pair_wr cs sp (pre_M A) [] We R = true /\
  run_w cs call cap We s' no_locals = Ok (s', bytes) /\ M_sound cs (pre_M A) s' /\ wf_state cs s' /\
  defined_on (emitted cs call We s') s' /\ s' (sp_field sp) = VInt (sp_sig sp) /\
  (forall f, ~ In f (map fst A) -> s' f = s f).
Proof.
  unfold class_rt_ok. destruct (split_pre W) as [A We] eqn:Esp. cbn [fst snd].
  intros Hok s s' bytes Hrun Hws Hds Hsig Hguard.
  apply andb_prop in Hok. destruct Hok as [Hok Hpair]. apply andb_prop in Hok. destruct Hok as [Hpre Hnsig].
  rewrite (run_w_split W s A We Esp) in Hrun.
  destruct (run_pre A s) as [s1|] eqn:Epre; [|discriminate]. cbn [bind] in Hrun.
  assert (Hs1 : s' = s1) by (eapply run_w_pure; eauto using pair_wr_paired). subst s1.
  destruct (run_pre_facts A s s' Hpre Epre Hws) as (HM & Hw' & Hd' & Hfr); [intros f Hf; apply Hds, in_or_app; auto|exact Hguard|].
  split; [exact Hpair|]. split; [exact Hrun|]. split; [exact HM|]. split; [exact Hw'|]. split; [|split; [|exact Hfr]].
  - intros f Hf. apply Hd', Hds, in_or_app. left. eapply emitted_wfields; eauto.
  - rewrite Hfr; [exact Hsig|]. apply not_in_known. exact Hnsig.
Qed.

Theorem object_roundtrip_stream W R : class_rt_ok W R = true ->
  let A := fst (split_pre W) in let We := snd (split_pre W) in
  forall s s' bytes,
    run_w cs call cap W s no_locals = Ok (s', bytes) ->
    wf_state cs s -> defined_on (wfields We ++ deriv_conts A) s ->
    s (sp_field sp) = VInt (sp_sig sp) -> pre_guard A s ->
  forall r i rest, nstream i -> s_after i = bytes ++ rest -> wf_state cs r -> defined_on (wfields We) r ->
  exists r' i',
    run_r cs call sp cap R r no_locals i = Ok (r', i') /\
    nstream i' /\ s_after i' = rest /\ (s_good i = true -> s_good i' = true) /\
    agree_on (emitted cs call We s') r' s' /\
    (forall f, ~ In f (emitted cs call We s') -> r' f = r f) /\
    (forall f, ~ In f (map fst A) -> s' f = s f).
Proof using cap_ge sig_range.
  intros Hok A We s s' bytes Hrun Hws Hds Hsig Hguard r i rest Hi Hafter Hwr Hdr.
  destruct (object_write_facts W R Hok s s' bytes Hrun Hws Hds Hsig Hguard) as (Hpair & Hrun' & HM & Hws' & Hds' & Hsig' & Hfr).
  destruct (pair_sound cs call sp cap cap_ge sig_range We (pre_M A) [] R s' bytes Hpair Hrun' HM Hws' Hds' Hsig'
              r i rest Hi Hafter) as (r' & i' & Hr & (P1 & P2 & P3 & P4 & P5) & Pg); try assumption.
  { intros f []. }
  { intros f Hf. apply Hdr. eapply emitted_wfields; eauto. }
  exists r', i'. rewrite app_nil_r in P3. auto 10.
Qed.

(* the special case of a stream that starts at the object *)
Theorem object_roundtrip W R : class_rt_ok W R = true ->
  let A := fst (split_pre W) in let We := snd (split_pre W) in
  forall s s' bytes,
    run_w cs call cap W s no_locals = Ok (s', bytes) ->
    wf_state cs s -> defined_on (wfields We ++ deriv_conts A) s ->
    s (sp_field sp) = VInt (sp_sig sp) -> pre_guard A s ->
  forall r rest, wf_state cs r -> defined_on (wfields We) r ->
  exists r' i',
    run_r cs call sp cap R r no_locals (mk_ustream (bytes ++ rest)) = Ok (r', i') /\
    nstream i' /\ s_after i' = rest /\
    agree_on (emitted cs call We s') r' s' /\
    (forall f, ~ In f (emitted cs call We s') -> r' f = r f) /\
    (forall f, ~ In f (map fst A) -> s' f = s f).
Proof using cap_ge sig_range.
  intros Hok A We s s' bytes Hrun Hws Hds Hsig Hguard r rest Hwr Hdr.
  destruct (object_roundtrip_stream W R Hok s s' bytes Hrun Hws Hds Hsig Hguard r (mk_ustream (bytes ++ rest)) rest (nstream_mk _) eq_refl Hwr Hdr)
    as (r' & i' & H1 & H2 & H3 & _ & H4 & H5 & H6).
  exists r', i'. auto 10.
Qed.

Hypothesis call_no_oob : forall tg m s, call tg m s <> Err EOOBRead.

Lemma eval_as_no_oob t s e : eval_as cs call t s no_locals e <> Err EOOBRead.
Proof using call_no_oob. apply eval_as_not; [reflexivity|exact call_no_oob]. Qed.

(* a container is written through a count of its own size, so the copy stays inside it *)
Lemma run_w_in_bounds M known W R : paired cs sp M known W R -> forall s,
  M_sound cs M s -> wf_state cs s -> defined_on (wfields W) s ->
  run_w cs call cap W s no_locals <> Err EOOBRead.
Proof using call_no_oob.
  assert (Hcont : forall M e f s k, cnt_of M e = Some (CSize f (elt_of cs f)) -> M_sound cs M s -> wf_state cs s ->
            (is_vec cs f || is_arr cs f) = true -> s f <> VUndef ->
            run_w cs call cap k s no_locals <> Err EOOBRead -> run_w cs call cap (PWriteBytes f e k) s no_locals <> Err EOOBRead).
  { clear. intros M e f s k Hc HM Hw Hk Hsf IH. cbn [run_w].
    destruct (cont_bytes cs s f Hw Hk Hsf) as [b Hb].
    destruct (whole_count cs call M e f s b Hc HM Hw Hk Hb) as [Hev _].
    rewrite Hev, Hb. cbn [bind]. destruct (zlen b <=? 0); [exact IH|]. rewrite Z.ltb_irrefl.
    apply bind_not; [exact IH|discriminate]. }
  assert (Hfix : forall f s k, run_w cs call cap k s no_locals <> Err EOOBRead -> run_w cs call cap (PWrite f k) s no_locals <> Err EOOBRead).
  { intros f s k IH. cbn [run_w]. destruct (ff f) as [x|]; [|discriminate]. apply bind_not.
    - unfold field_bytes. destruct (f_kind x); destruct (s f); try discriminate. destruct (_ =? _); discriminate.
    - intros b _. apply bind_not; [exact IH|discriminate]. }
  induction 1; intros s HM Hw Hd; cbn [wfields] in Hd; try (apply defined_on_tl in Hd; destruct Hd as [Hf Hd]).
  - discriminate.
  - apply Hfix. auto.
  - apply Hfix. auto.
  - apply (Hcont M); auto. apply orb_true_iff. auto.
  - apply (Hcont []); auto using M_sound_nil. apply orb_true_iff. auto.
  - cbn [run_w]. apply bind_not; [apply eval_as_no_oob|intros n _]. destruct (_ || _); [discriminate|].
    apply bind_not; [|discriminate]. apply IHpaired; auto.
  - cbn [run_w]. apply bind_not; [apply eval_not; [reflexivity|exact call_no_oob]|intros x _].
    destruct (fst x =? 0); [apply IHpaired2|apply IHpaired1]; auto; intros g Hg; apply Hd, in_or_app; auto.
Qed.

Lemma run_pre_no_oob A : forall s, run_pre A s <> Err EOOBRead.
Proof using call_no_oob.
  induction A as [|[g e] r IH]; intros s; cbn [run_pre]; [discriminate|].
  destruct (scalar_ty g) as [t|]; [|discriminate]. apply bind_not; [apply eval_as_no_oob|intros; apply IH].
Qed.

(* whole classes: whatever the stale values in the derived members *)
Theorem encoder_in_bounds W R : class_rt_ok W R = true ->
  let A := fst (split_pre W) in let We := snd (split_pre W) in
  forall s, wf_state cs s -> defined_on (wfields We ++ deriv_conts A) s -> pre_guard A s ->
  run_w cs call cap W s no_locals <> Err EOOBRead.
Proof using call_no_oob.
  unfold class_rt_ok. destruct (split_pre W) as [A We] eqn:Esp. cbn [fst snd].
  intros Hok s Hws Hds Hguard.
  apply andb_prop in Hok. destruct Hok as [Hok Hpair]. apply andb_prop in Hok. destruct Hok as [Hpre _].
  rewrite (run_w_split W s A We Esp). apply bind_not; [apply run_pre_no_oob|intros s1 Epre].
  destruct (run_pre_facts A s s1 Hpre Epre Hws) as (HM & Hw1 & Hd1 & _); [intros f Hf; apply Hds, in_or_app; auto|exact Hguard|].
  apply (run_w_in_bounds _ _ _ _ (pair_wr_paired cs sp We _ _ _ Hpair)); auto.
  intros f Hf. apply Hd1, Hds, in_or_app. auto.
Qed.

End CRT.

(* Programs that begin with a run of member writes (every class writes the members of the base header first) *)
Fixpoint strip_writes (fs : list Z) (p : prog) : option prog :=
  match fs with
  | [] => Some p
  | f :: r => match p with PWrite g k => if g =? f then strip_writes r k else None | _ => None end
  end.

Lemma strip_spec : forall fs p k, strip_writes fs p = Some k -> p = fold_right PWrite k fs.
Proof.
  induction fs as [|f r IH]; intros p k H; cbn [strip_writes] in H; [injection H as <-; reflexivity|].
  destruct p; try discriminate. destruct (Z.eqb_spec f0 f) as [->|]; [|discriminate].
  cbn [fold_right]. f_equal. exact (IH _ _ H).
Qed.

Section Writes.
Variable cs : classes.
Variable call : target -> mid -> state -> res (Z * ity).
Variable cap : Z.

Lemma emitted_writes fs k s : emitted cs call (fold_right PWrite k fs) s = fs ++ emitted cs call k s.
Proof. induction fs as [|f r IH]; cbn [fold_right emitted app]; [reflexivity|]. rewrite IH. reflexivity. Qed.

(* the bytes of the leading writes do not depend on the calls: a reader of another class (ObjectHeaderBase's, for the
   header) decodes them under its own *)
Lemma run_w_writes : forall fs k s s' out, run_w cs call cap (fold_right PWrite k fs) s no_locals = Ok (s', out) ->
  exists hdr rb, out = hdr ++ rb /\ forall call', run_w cs call' cap (fold_right PWrite PEnd fs) s no_locals = Ok (s, hdr).
Proof.
  induction fs as [|f r IH]; intros k s s' out H; cbn [fold_right] in *.
  - exists [], out. split; reflexivity.
  - destruct (run_w_write cs call cap _ _ _ _ _ _ H) as (x & b & o1 & Hx & Hb & Ek & ->).
    destruct (IH _ _ _ _ Ek) as (hdr & rb & E1 & E2).
    exists (b ++ hdr), rb. split; [rewrite E1, app_assoc; reflexivity|].
    intros call'. cbn [run_w]. rewrite Hx, Hb. cbn [bind]. rewrite (E2 call'). reflexivity.
Qed.

(* writes of scalar members emit their widths, whatever the members hold *)
Definition width_of (f : Z) : option Z :=
  match find_field cs f with Some x => match f_kind x with KScalar t => Some (width t) | _ => None end | None => None end.

Lemma writes_len : forall fs ws s s' out, run_w cs call cap (fold_right PWrite PEnd fs) s no_locals = Ok (s', out) ->
  map width_of fs = map Some ws -> zlen out = fold_right Z.add 0 ws.
Proof.
  induction fs as [|f r IH]; intros [|w ws] s s' out H Hk; try discriminate; cbn [fold_right] in *.
  - cbn in H. inversion H; subst. reflexivity.
  - injection Hk as Hw Hk. unfold width_of in Hw.
    destruct (run_w_write cs call cap _ _ _ _ _ _ H) as (x & b & o1 & Hx & Hb & Ek & ->). rewrite Hx in Hw.
    rewrite zlen_app, (IH _ _ _ _ Ek Hk). f_equal.
    unfold field_bytes in Hb. destruct (f_kind x) as [t| |]; try discriminate. injection Hw as <-. pose proof (width_pos t).
    destruct (s f); inversion Hb; subst; [apply zlen_le_enc|rewrite zlen_repeat]; lia.
Qed.
End Writes.
