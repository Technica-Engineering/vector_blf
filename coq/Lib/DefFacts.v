(* DefFacts.v — C14: no emitted byte depends on indeterminate memory.
   The encoder model marks a byte taken from an uninitialised member as -1 (Sem.field_bytes on VUndef).
   Theorem (run_w_defined / enc_defined): if every member the write program may emit (on any branch) holds a determined
   value — an integer, or bytes each in 0..255 — then every byte the encoder emits is a real byte (0..255), for every
   write program (any class, any variant taken).
   Together with C17_determined (a freshly constructed object is fully determined) and the fact that the
   model is a function: the bytes are a function of the caller-visible member values alone. *)
From VB Require Import Base IR Sem BaseFacts.
Local Open Scope Z_scope.

Definition byte (z : Z) : Prop := 0 <= z < 256.
Definition defined_val (v : value) : Prop :=
  match v with VInt _ => True | VBytes b => Forall byte b | VUndef => False end.
Definition defined (s : state) : Prop := forall f, defined_val (s f).

Lemma zeros_bytes n : Forall byte (zeros n).
Proof. unfold zeros. induction (Z.to_nat n) as [|k IH]; cbn; constructor; [unfold byte; lia|exact IH]. Qed.
Lemma ztake_bytes n b : Forall byte b -> Forall byte (ztake n b).
Proof. intros H. unfold ztake. revert b H. induction (Z.to_nat n) as [|k IH]; intros b H; [constructor|]. destruct b as [|x b]; [constructor|]. cbn [firstn]. inversion H; subst. constructor; [assumption|apply IH; assumption]. Qed.

Lemma upd_defined s f z : defined s -> defined (upd s f (VInt z)).
Proof. intros H g. unfold upd. destruct (g =? f); [exact I|apply H]. Qed.

Section Def.
Variable cs : classes.
Variable call : target -> mid -> state -> res (Z * ity).
Variable cap : Z.

Lemma field_bytes_defined x v b : defined_val v -> field_bytes x v = Ok b -> Forall byte b.
Proof.
  intros Hd H. unfold field_bytes in H. destruct (f_kind x) as [t|e n|e]; destruct v as [z|l|]; try discriminate; try contradiction.
  - inversion H; subst. unfold le_enc. apply le_enc_nat_bytes.
  - destruct (zlen l =? e * n); [|discriminate]. inversion H; subst. exact Hd.
Qed.

(* the members a write program may emit (over all its branches) *)
Fixpoint emit_fields (p : prog) : list Z :=
  match p with
  | PWrite f k => f :: emit_fields k
  | PWriteBytes f _ k => f :: emit_fields k
  | PZero _ k | PAssign _ _ k | PDecl _ _ _ k | PSet _ _ k => emit_fields k
  | PIf _ a b => emit_fields a ++ emit_fields b
  | _ => []
  end.

Theorem run_w_defined : forall p s l s' out, (forall f, In f (emit_fields p) -> defined_val (s f)) ->
  run_w cs call cap p s l = Ok (s', out) -> Forall byte out.
Proof.
  induction p as [| e | | | f k IH | f k IH | f e k IH | f e k IH | f e k IH | e k IH | e k IH | f e k IH | x t e k IH | x e k IH | k IH | c a IHa b IHb];
    intros s l s' out Hd H; cbn [run_w] in H; cbn [emit_fields] in Hd; try discriminate.
  - inversion H; subst. constructor.
  - destruct (find_field cs f) as [x|]; [|discriminate].
    destruct (field_bytes x (s f)) as [b|] eqn:Eb; cbn [bind] in H; [|discriminate].
    destruct (run_w cs call cap k s l) as [[s1 o1]|] eqn:Ek; cbn [bind] in H; [|discriminate].
    inversion H; subst. apply Forall_app. split.
    + eapply field_bytes_defined; [apply Hd; left; reflexivity|exact Eb].
    + eapply IH; [|exact Ek]. intros g Hg. apply Hd. right. exact Hg.
  - destruct (eval_as cs call I64 s l e) as [n|]; cbn [bind] in H; [|discriminate].
    pose proof (Hd f (or_introl eq_refl)) as Hf. destruct (s f) as [z|b|] eqn:Ef; try discriminate.
    assert (Hk : forall g, In g (emit_fields k) -> defined_val (s g)) by (intros g Hg; apply Hd; right; exact Hg).
    destruct (n <=? 0); [eapply IH; eauto|]. destruct (zlen b <? n); [discriminate|].
    destruct (run_w cs call cap k s l) as [[s1 o1]|] eqn:Ek; cbn [bind] in H; [|discriminate].
    inversion H; subst. apply Forall_app. split; [apply ztake_bytes; exact Hf|eapply IH; eauto].
  - destruct (eval_as cs call I64 s l e) as [n|]; cbn [bind] in H; [|discriminate].
    destruct ((n <? 0) || (cap <? n)); [discriminate|].
    destruct (run_w cs call cap k s l) as [[s1 o1]|] eqn:Ek; cbn [bind] in H; [|discriminate].
    inversion H; subst. apply Forall_app. split; [apply zeros_bytes|eapply IH; eauto].
  - destruct (find_field cs f) as [x|]; [|discriminate]. destruct (f_kind x) as [t|? ?|?]; try discriminate.
    destruct (eval_as cs call t s l e) as [v|]; cbn [bind] in H; [|discriminate].
    eapply IH; [|exact H]. intros g Hg. unfold upd. destruct (g =? f); [exact I|apply Hd; exact Hg].
  - destruct (eval_as cs call t s l e) as [v|]; cbn [bind] in H; [|discriminate]. eapply IH; eauto.
  - destruct (l x) as [[? t]|]; [|discriminate].
    destruct (eval_as cs call t s l e) as [v|]; cbn [bind] in H; [|discriminate]. eapply IH; eauto.
  - destruct (eval cs call s l c) as [v|]; cbn [bind] in H; [|discriminate].
    destruct (fst v =? 0); [eapply IHb|eapply IHa]; eauto; intros g Hg; apply Hd; apply in_or_app; auto.
Qed.

End Def.

(* decidable form, for states that can be evaluated (freshly constructed objects) *)
Definition is_defined (v : value) : bool :=
  match v with VInt _ => true | VBytes b => forallb (fun z => (0 <=? z) && (z <? 256)) b | VUndef => false end.
Lemma is_defined_ok v : is_defined v = true -> defined_val v.
Proof.
  destruct v as [z|b|]; cbn; [intros _; exact I| |discriminate]. intros H. rewrite forallb_forall in H.
  apply Forall_forall. intros x Hx. specialize (H x Hx). apply andb_prop in H. destruct H as [A B].
  unfold byte. lia.
Qed.

Definition all_defined (fs : list Z) (s : state) : bool := forallb (fun f => is_defined (s f)) fs.
Lemma all_defined_ok fs s : all_defined fs s = true -> forall f, In f fs -> defined_val (s f).
Proof. intros H f Hf. apply is_defined_ok. exact (proj1 (forallb_forall _ _) H f Hf). Qed.

Theorem enc_defined cs cap c s s' out : (forall f, In f (emit_fields (prog_of cs c M_write)) -> defined_val (s f)) ->
  enc cs cap c s = Ok (s', out) -> Forall byte out.
Proof. unfold enc. apply run_w_defined. Qed.
