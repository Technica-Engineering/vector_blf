(* Roundtrip.v — generic write-then-read theorem for paired codec programs (proved once; the
   per-class premises are boolean checks evaluated on the generated programs). *)
From VB Require Import Base IR Sem Tables BaseFacts StreamFacts EvalFacts.
Local Open Scope Z_scope.
(* the `clear`s: see EvalFacts.v *)
Set Default Proof Using "Type".

Definition ity_eq_dec (a b : ity) : {a = b} + {a <> b}.
Proof. decide equality. Defined.
Definition unop_eq_dec (a b : unop) : {a = b} + {a <> b}.
Proof. decide equality. Defined.
Definition binop_eq_dec (a b : binop) : {a = b} + {a <> b}.
Proof. decide equality. Defined.
Definition target_eq_dec (a b : target) : {a = b} + {a <> b}.
Proof. decide equality; apply Z.eq_dec. Defined.
Definition expr_eq_dec (a b : expr) : {a = b} + {a <> b}.
Proof.
  decide equality; try apply Z.eq_dec; try apply ity_eq_dec; try apply unop_eq_dec;
    try apply binop_eq_dec; try apply target_eq_dec.
Defined.
Definition expr_eqb (a b : expr) : bool := if expr_eq_dec a b then true else false.
Lemma expr_eqb_eq a b : expr_eqb a b = true -> a = b.
Proof. unfold expr_eqb. destruct (expr_eq_dec a b); [auto|discriminate]. Qed.

Definition incl_b (a b : list Z) : bool := forallb (fun x => existsb (Z.eqb x) b) a.
Lemma incl_b_In a b : incl_b a b = true -> forall x, In x a -> In x b.
Proof.
  unfold incl_b. intros H x Hx. apply existsb_eqb_In. exact (proj1 (forallb_forall _ _) H x Hx).
Qed.

Section RT.
Variable cs : classes.
Variable call : target -> mid -> state -> res (Z * ity).
Variable sp : scan_params.
Variable cap : Z.
(* a well-shaped vector holds fewer than 2^28 bytes (shape_ok), so the reader's resize to its length passes the cap;
   Base.default_cap is 2^28 *)
Hypothesis cap_ge : 2 ^ 28 <= cap.
Hypothesis sig_range : 0 <= sp_sig sp < 2 ^ 32.

Notation ff := (find_field cs).
Notation evalc := (eval cs call).

Definition kind_of (f : Z) : option fkind := option_map f_kind (ff f).
Definition is_fixed (f : Z) : bool :=
  match kind_of f with Some (KScalar _) => true | Some (KArray e n) => (0 <? e) && (0 <=? n) | _ => false end.
Definition is_u32 (f : Z) : bool := match kind_of f with Some (KScalar U32) => true | _ => false end.
Definition is_vec (f : Z) : bool := match kind_of f with Some (KVec e) => (0 <? e) && (e <=? 8) | _ => false end.
Definition is_arr (f : Z) : bool :=
  match kind_of f with Some (KArray e n) => (0 <? e) && (e <=? 8) && (0 <=? n) && (e * n <? 2 ^ 28) | _ => false end.

Definition cnt_is (M : lenmap) (e : expr) (f k : Z) : bool :=
  match cnt_of M e with Some (CSize f' k') => (f' =? f) && (k' =? k) | None => false end.

(* M: which scalar members hold the count of which container when the emission starts (M_sound; ClassRT.pre_M builds it from
   write()'s leading assignments).  known: the fixed-size members the reader has read back so far, on which it agrees with the
   writer (agree_on): the only ones its counts, seek amounts and branch conditions may mention.  An array's count is checked
   against the empty map: the reader evaluates the same expression in its own state, of which M says nothing *)
Fixpoint pair_wr (M : lenmap) (known : list Z) (W R : prog) : bool :=
  match W, R with
  | PEnd, PEnd => true
  | PWrite f kw, PRead g kr => (f =? g) && is_fixed f && pair_wr M (f :: known) kw kr
  | PWrite f kw, PScan kr => (f =? sp_field sp) && is_u32 f && pair_wr M (f :: known) kw kr
  | PWriteBytes f e kw, PResize g e1 (PReadBytes h e2 kr) =>
      (f =? g) && (f =? h) && is_vec f && negb (existsb (Z.eqb f) known) &&
      cnt_is M e f (elt_of cs f) && cnt_is M e1 f 1 && cnt_is M e2 f (elt_of cs f) &&
      scalar_only e1 && scalar_only e2 && incl_b (reads e1) known && incl_b (reads e2) known &&
      pair_wr M known kw kr
  | PWriteBytes f e kw, PReadBytes h e2 kr =>
      (f =? h) && is_arr f && expr_eqb e e2 && cnt_is [] e f (elt_of cs f) && pair_wr M known kw kr
  | PZero e kw, PSeek e2 kr =>
      expr_eqb e e2 && scalar_only e && incl_b (reads e) known && pair_wr M known kw kr
  | PIf c a b, PIf c2 a2 b2 =>
      expr_eqb c c2 && scalar_only c && incl_b (reads c) known && pair_wr M known a a2 && pair_wr M known b b2
  | _, _ => false
  end.

(* fields emitted along the path the writer takes in state s *)
Fixpoint emitted (W : prog) (s : state) : list Z :=
  match W with
  | PWrite f k => f :: emitted k s
  | PWriteBytes f _ k => f :: emitted k s
  | PZero _ k => emitted k s
  | PIf c a b => match evalc s no_locals c with
                 | Ok x => if fst x =? 0 then emitted b s else emitted a s
                 | Err _ => [] end
  | PAssign f e k =>        (* only in programs outside the theorems; used by the executable oracle *)
      match kind_of f with
      | Some (KScalar t) => match eval_as cs call t s no_locals e with
                            | Ok v => emitted k (upd s f (VInt v)) | Err _ => [] end
      | _ => [] end
  | _ => []
  end.

(* VUndef (an uninitialised member) is well-shaped; a vector holds whole elements and fewer than 2^28 bytes, so that the
   reader's resize to its length passes the cap (cap_ge) *)
Definition shape_ok (x : fdef) (v : value) : Prop :=
  match f_kind x, v with
  | _, VUndef => True
  | KScalar t, VInt z => in_type t z = true
  | KArray e n, VBytes b => zlen b = e * n
  | KVec e, VBytes b => zlen b mod e = 0 /\ zlen b < 2 ^ 28
  | _, _ => False
  end.
Definition wf_state (s : state) : Prop := forall f x, ff f = Some x -> shape_ok x (s f).
Definition defined_on (fs : list Z) (s : state) : Prop := forall f, In f fs -> s f <> VUndef.

Lemma wf_upd s f x v : wf_state s -> ff f = Some x -> shape_ok x v -> wf_state (upd s f v).
Proof.
  intros Hw Hx Hv g y Hy. unfold upd. destruct (Z.eqb_spec g f) as [->|Hne].
  - rewrite Hx in Hy. injection Hy as <-. exact Hv.
  - apply Hw. exact Hy.
Qed.

Lemma wf_upd_int s f x t z : wf_state s -> ff f = Some x -> f_kind x = KScalar t -> in_type t z = true ->
  wf_state (upd s f (VInt z)).
Proof. intros Hw Hx Hk Hz. apply (wf_upd _ _ x); [exact Hw|exact Hx|]. unfold shape_ok. rewrite Hk. exact Hz. Qed.

Lemma cont_ok_of s f b : wf_state s -> (is_vec f || is_arr f) = true -> s f = VBytes b -> cont_ok cs s f.
Proof.
  clear sig_range call. intros Hw Hv Hb. unfold is_vec, is_arr, kind_of in Hv. destruct (ff f) as [x|] eqn:Hx; [|discriminate].
  cbn [option_map] in Hv. specialize (Hw f x Hx). unfold shape_ok in Hw. rewrite Hb in Hw.
  exists x, b. destruct (f_kind x) as [t|e n|e]; try discriminate; cbn [kelt]; repeat split; try tauto; try lia.
  rewrite Hw, Z.mul_comm. apply Z.mod_mul. lia.
Qed.

Lemma cont_bytes s f : wf_state s -> (is_vec f || is_arr f) = true -> s f <> VUndef -> exists b, s f = VBytes b.
Proof.
  intros Hw Hk Hd. unfold is_vec, is_arr, kind_of in Hk. destruct (ff f) as [x|] eqn:Hx; [|discriminate]. cbn [option_map] in Hk.
  specialize (Hw f x Hx). unfold shape_ok in Hw.
  destruct (f_kind x); try discriminate; destruct (s f) as [|b|]; try contradiction; try congruence; eauto.
Qed.

Definition agree_on (fs : list Z) (r s : state) : Prop := forall f, In f fs -> r f = s f.

Lemma eval_as_agree t e r s known : scalar_only e = true -> (forall x, In x (reads e) -> In x known) -> agree_on known r s ->
  eval_as cs call t r no_locals e = eval_as cs call t s no_locals e.
Proof. intros H1 H2 Ha. unfold eval_as. rewrite (eval_frame cs call e r s); [reflexivity|exact H1|]. intros f Hf. apply Ha, H2, Hf. Qed.

Lemma M_sound_nil s : M_sound cs [] s.
Proof. intros g c H. discriminate. Qed.

(* the count expression the writer uses for container f, and the reader for its read (CSize f (elt_of f)), evaluates to the
   length of f in bytes; the one the reader resizes by (CSize f 1, elem_count) to its number of elements *)
Lemma whole_count M e f s b : cnt_of M e = Some (CSize f (elt_of cs f)) -> M_sound cs M s ->
  wf_state s -> (is_vec f || is_arr f) = true -> s f = VBytes b ->
  eval_as cs call I64 s no_locals e = Ok (zlen b) /\ zlen b < 2 ^ 28.
Proof.
  intros Hc HM Hw Hk Hb. pose proof (cont_ok_of s f b Hw Hk Hb) as Hf. destruct (cnt_of_sound cs call M e s no_locals f _ Hc HM Hf) as (_ & t & Hev).
  destruct (cont_elems cs s f Hf) as (H0 & H1 & b' & Hb' & H2 & H3). rewrite Hb in Hb'. injection Hb' as <-.
  unfold eval_as. rewrite Hev. cbn [bind fst]. rewrite H2.
  rewrite norm_small; [split; [reflexivity|lia]|cbn; lia|lia].
Qed.

Lemma elem_count M e f s b : cnt_of M e = Some (CSize f 1) -> M_sound cs M s ->
  wf_state s -> (is_vec f || is_arr f) = true -> s f = VBytes b ->
  eval_as cs call U64 s no_locals e = Ok (zlen b / elt_of cs f) /\ zlen b / elt_of cs f * elt_of cs f = zlen b.
Proof.
  intros Hc HM Hw Hk Hb. pose proof (cont_ok_of s f b Hw Hk Hb) as Hf. destruct (cnt_of_sound cs call M e s no_locals f _ Hc HM Hf) as (_ & t & Hev).
  destruct (cont_elems cs s f Hf) as (H0 & H1 & b' & Hb' & H2 & H3). rewrite Hb in Hb'. injection Hb' as <-.
  unfold eval_as. rewrite Hev. cbn [bind fst].
  assert (E : elems cs s f = zlen b / elt_of cs f) by (unfold elems; rewrite Hb; reflexivity).
  rewrite Z.mul_1_r. rewrite E in *.
  rewrite norm_small; [split; [reflexivity|lia]|cbn; lia|nia].
Qed.

(* what pair_wr accepts, as a relation: the seven ways a write program and a read program correspond, each with those of
   pair_wr's tests that the proofs use (is_fixed is not among them: the writer itself refuses a member that is not fixed) *)
Inductive paired (M : lenmap) : list Z -> prog -> prog -> Prop :=
| pr_end known : paired M known PEnd PEnd
| pr_fixed known f kw kr : paired M (f :: known) kw kr -> paired M known (PWrite f kw) (PRead f kr)
| pr_scan known kw kr : is_u32 (sp_field sp) = true -> paired M (sp_field sp :: known) kw kr ->
    paired M known (PWrite (sp_field sp) kw) (PScan kr)
| pr_vec known f e e1 e2 kw kr : is_vec f = true -> ~ In f known ->
    cnt_of M e = Some (CSize f (elt_of cs f)) -> cnt_of M e1 = Some (CSize f 1) -> cnt_of M e2 = Some (CSize f (elt_of cs f)) ->
    scalar_only e1 = true -> scalar_only e2 = true ->
    (forall x, In x (reads e1) -> In x known) -> (forall x, In x (reads e2) -> In x known) ->
    paired M known kw kr -> paired M known (PWriteBytes f e kw) (PResize f e1 (PReadBytes f e2 kr))
| pr_arr known f e kw kr : is_arr f = true -> cnt_of [] e = Some (CSize f (elt_of cs f)) ->
    paired M known kw kr -> paired M known (PWriteBytes f e kw) (PReadBytes f e kr)
| pr_zero known e kw kr : scalar_only e = true -> (forall x, In x (reads e) -> In x known) ->
    paired M known kw kr -> paired M known (PZero e kw) (PSeek e kr)
| pr_if known c a b a2 b2 : scalar_only c = true -> (forall x, In x (reads c) -> In x known) ->
    paired M known a a2 -> paired M known b b2 -> paired M known (PIf c a b) (PIf c a2 b2).

Lemma not_in_known f known : negb (existsb (Z.eqb f) known) = true -> ~ In f known.
Proof.
  intros H. apply negb_true_iff, not_true_iff_false in H. rewrite existsb_eqb_In in H. exact H.
Qed.

Lemma cnt_is_eq M e f k : cnt_is M e f k = true -> cnt_of M e = Some (CSize f k).
Proof.
  unfold cnt_is. destruct (cnt_of M e) as [[f' k']|]; [|discriminate].
  intros H. apply andb_prop in H. destruct H as [H1 H2].
  apply Z.eqb_eq in H1, H2. subst. reflexivity.
Qed.

Lemma pair_wr_paired W : forall M known R, pair_wr M known W R = true -> paired M known W R.
Proof.
  (* the tests of each case of pair_wr, named in the order in which pair_wr lists them *)
  induction W; intros M known R H; destruct R; cbn [pair_wr] in H; try discriminate; rewrite ?andb_true_iff in H.
  - apply pr_end.
  - destruct H as [[E _] P]. apply Z.eqb_eq in E. subst. apply pr_fixed; auto.
  - destruct H as [[E U] P]. apply Z.eqb_eq in E. subst. apply pr_scan; auto.
  - destruct H as [[[[E A] X] C] P]. apply Z.eqb_eq in E. apply expr_eqb_eq in X. subst. apply pr_arr; auto using cnt_is_eq.
  - destruct R; try discriminate. rewrite ?andb_true_iff in H.
    destruct H as [[[[[[[[[[[E1 E2] V] N] C] C1] C2] S1] S2] I1] I2] P]. apply Z.eqb_eq in E1, E2. subst.
    apply pr_vec; eauto using cnt_is_eq, not_in_known, incl_b_In.
  - destruct H as [[[X S] I] P]. apply expr_eqb_eq in X. subst. apply pr_zero; eauto using incl_b_In.
  - destruct H as [[[[X S] I] Pa] Pb]. apply expr_eqb_eq in X. subst. apply pr_if; eauto using incl_b_In.
Qed.

Lemma run_w_write f k s l st bytes : run_w cs call cap (PWrite f k) s l = Ok (st, bytes) ->
  exists x b rb, ff f = Some x /\ field_bytes x (s f) = Ok b /\ run_w cs call cap k s l = Ok (st, rb) /\ bytes = b ++ rb.
Proof.
  cbn [run_w]. destruct (ff f) as [x|]; [|discriminate]. destruct (field_bytes x (s f)) as [b|] eqn:Eb; [|discriminate]. cbn [bind].
  destruct (run_w cs call cap k s l) as [[st' rb]|]; [|discriminate]. cbn [bind fst snd]. intros E. injection E as <- <-.
  exists x, b, rb. auto.
Qed.

Lemma run_w_pure M known W R : paired M known W R -> forall s l st bytes, run_w cs call cap W s l = Ok (st, bytes) -> st = s.
Proof.
  assert (Hb : forall f e kw, (forall s l st bytes, run_w cs call cap kw s l = Ok (st, bytes) -> st = s) ->
            forall s l st bytes, run_w cs call cap (PWriteBytes f e kw) s l = Ok (st, bytes) -> st = s).
  { intros f e kw IH s l st bytes HR. cbn [run_w] in HR.
    destruct (eval_as _ _ _ _ _ _); [|discriminate]. cbn [bind] in HR. destruct (s f); try discriminate.
    destruct (_ <=? 0); [eauto|]. destruct (_ <? _); [discriminate|].
    destruct (run_w cs call cap kw s l) as [[st' r]|] eqn:E; [|discriminate]. injection HR as <- _. eauto. }
  induction 1; intros s l st bytes HR; eauto.
  - injection HR as <- _. reflexivity.
  - destruct (run_w_write _ _ _ _ _ _ HR) as (_ & _ & rb & _ & _ & Ek & _). eauto.
  - destruct (run_w_write _ _ _ _ _ _ HR) as (_ & _ & rb & _ & _ & Ek & _). eauto.
  - cbn [run_w] in HR. destruct (eval_as _ _ _ _ _ _); [|discriminate]. cbn [bind] in HR. destruct (_ || _); [discriminate|].
    destruct (run_w cs call cap kw s l) as [[st' r]|] eqn:E; [|discriminate]. injection HR as <- _. eauto.
  - cbn [run_w] in HR. destruct (evalc s l c) as [x|]; [|discriminate]. cbn [bind] in HR. destruct (fst x =? 0); eauto.
Qed.

(* a container written whole: all of its bytes, whether it is empty or not *)
Lemma run_w_bytes f e k s l st bytes b : run_w cs call cap (PWriteBytes f e k) s l = Ok (st, bytes) ->
  eval_as cs call I64 s l e = Ok (zlen b) -> s f = VBytes b ->
  exists rb, run_w cs call cap k s l = Ok (st, rb) /\ bytes = b ++ rb.
Proof.
  cbn [run_w]. intros HR En Hb. rewrite En, Hb in HR. cbn [bind] in HR. destruct (zlen b <=? 0) eqn:E0.
  - assert (b = []) by (destruct b; [reflexivity|rewrite zlen_cons in E0; pose proof (zlen_nonneg b); lia]). subst b. eauto.
  - rewrite Z.ltb_irrefl in HR. destruct (run_w cs call cap k s l) as [[st' rb]|]; [|discriminate].
    cbn [bind fst snd] in HR. injection HR as <- <-. rewrite ztake_all. eauto.
Qed.

Lemma member_back x v old b : shape_ok x v -> shape_ok x old -> v <> VUndef -> old <> VUndef ->
  field_bytes x v = Ok b -> ksize (f_kind x) = Some (zlen b) /\ read_into x old b = Ok v.
Proof.
  unfold shape_ok, field_bytes, read_into. intros Hv Ho Dv Do Hb.
  destruct (f_kind x) as [t|e n|e]; destruct v as [z|bb|]; try contradiction; try discriminate.
  - injection Hb as <-. rewrite zlen_le_enc by (pose proof (width_pos t); lia).
    rewrite Z.eqb_refl, scalar_roundtrip by exact Hv. auto.
  - rewrite Hv, Z.eqb_refl in Hb. injection Hb as <-. destruct old as [|old|]; try contradiction.
    split; [cbn [ksize]; rewrite Hv; reflexivity|]. rewrite Hv, <- Ho, zdrop_all, app_nil_r. reflexivity.
Qed.

Definition rt_post (W : prog) (s r : state) (known : list Z) (rest : list Z) (r' : state) (i' : istream) : Prop :=
  nstream i' /\ s_after i' = rest /\
  agree_on (emitted W s ++ known) r' s /\
  (forall f, ~ In f (emitted W s) -> r' f = r f) /\ wf_state r'.

(* after the reader's first step has read member f back (r1 is r with f as written), the rest of the program runs from r1
   as the induction hypothesis IH says; this puts the two together *)
Lemma after_member kw kr known kn1 f (s r r1 : state) rb i i1 rest :
  (forall r i rest, nstream i -> s_after i = rb ++ rest -> agree_on kn1 r s -> wf_state r -> defined_on (emitted kw s) r ->
     exists r' i', run_r cs call sp cap kr r no_locals i = Ok (r', i') /\ rt_post kw s r kn1 rest r' i' /\
       (s_good i = true -> s_good i' = true)) ->
  wf_state s -> s f <> VUndef -> r1 f = s f -> (forall g, g <> f -> r1 g = r g) ->
  (forall g, In g known -> In g kn1) -> (forall g, In g kn1 -> g = f \/ In g known) ->
  nstream i1 -> s_after i1 = rb ++ rest -> (s_good i = true -> s_good i1 = true) ->
  agree_on known r s -> wf_state r -> defined_on (emitted kw s) r ->
  exists r' i', run_r cs call sp cap kr r1 no_locals i1 = Ok (r', i') /\
    (nstream i' /\ s_after i' = rest /\ agree_on ((f :: emitted kw s) ++ known) r' s /\
     (forall g, ~ In g (f :: emitted kw s) -> r' g = r g) /\ wf_state r') /\ (s_good i = true -> s_good i' = true).
Proof.
  intros IH Hws Hsf Hf Hr Hk Hk' Hi1 Ha1 Hg1 Hag Hwr Hdr.
  destruct (IH r1 i1 rest Hi1 Ha1) as (r' & i' & Hrun & (P1 & P2 & P3 & P4 & P5) & Hgd).
  - intros g Hg. destruct (Z.eq_dec g f) as [->|Hne]; [exact Hf|]. rewrite (Hr g Hne). destruct (Hk' g Hg); [contradiction|auto].
  - intros g y Hy. destruct (Z.eq_dec g f) as [->|Hne]; [rewrite Hf; auto|rewrite (Hr g Hne); auto].
  - intros g Hg. destruct (Z.eq_dec g f) as [->|Hne]; [rewrite Hf; exact Hsf|rewrite (Hr g Hne); auto].
  - exists r', i'. split; [exact Hrun|]. split; [|auto]. refine (conj P1 (conj P2 (conj _ (conj _ P5)))).
    + intros g [<-|Hg].
      * destruct (in_dec Z.eq_dec f (emitted kw s)) as [Hin|Hnin]; [apply P3, in_or_app; auto|rewrite (P4 f Hnin); exact Hf].
      * apply P3. apply in_app_or in Hg. apply in_or_app. destruct Hg; auto.
    + intros g Hg. rewrite P4 by (intros C; apply Hg; right; exact C). apply Hr. intros ->. apply Hg. left. reflexivity.
Qed.

Lemma defined_on_tl f fs s : defined_on (f :: fs) s -> s f <> VUndef /\ defined_on fs s.
Proof. intros H. split; [apply H; left; reflexivity|intros g Hg; apply H; right; exact Hg]. Qed.

Lemma paired_sound M known W R : paired M known W R -> forall s bytes,
  run_w cs call cap W s no_locals = Ok (s, bytes) ->
  M_sound cs M s -> wf_state s -> defined_on (emitted W s) s ->
  s (sp_field sp) = VInt (sp_sig sp) ->
  forall r i rest, nstream i -> s_after i = bytes ++ rest ->
    agree_on known r s -> wf_state r -> defined_on (emitted W s) r ->
  exists r' i', run_r cs call sp cap R r no_locals i = Ok (r', i') /\ rt_post W s r known rest r' i' /\
    (s_good i = true -> s_good i' = true).
Proof using cap_ge sig_range.
  (* the four cases in which a member is written (pr_fixed, pr_scan, pr_vec, pr_arr): the writer emitted b for member f, then rb;
     the reader's first step consumes b, leaving r1 (r with f as written) and i1; after_member runs the rest from there by the
     induction hypothesis *)
  induction 1 as [known|known f kw kr Hp IH|known kw kr Hu32 Hp IH|known f e e1 e2 kw kr Hvec Hnk Hc Hc1 Hc2 Hso1 Hso2 Hin1 Hin2 Hp IH
                 |known f e kw kr Harr Hc Hp IH|known e kw kr Hso Hin Hp IH|known c a b a2 b2 Hso Hin Hpa IHa Hpb IHb];
    intros s bytes HR HM Hws Hds Hsig r i rest Hi Hbytes Hag Hwr Hdr.
  - injection HR as <-. exists r, i. split; [reflexivity|]. split; [|auto].
    refine (conj Hi (conj Hbytes (conj Hag (conj _ Hwr)))). reflexivity.
  - (* a scalar or fixed array *)
    destruct (run_w_write _ _ _ _ _ _ HR) as (x & b & rb & Hx & Hb & Ek & ->). rewrite <- app_assoc in Hbytes.
    cbn [emitted] in Hds, Hdr. apply defined_on_tl in Hds, Hdr. destruct Hds as [Hsf Hds], Hdr as [Hrf Hdr].
    destruct (read_over i b _ Hi Hbytes) as (i1 & Hrd & Hi1 & Ha1 & Hg1).
    destruct (member_back x (s f) (r f) b (Hws f x Hx) (Hwr f x Hx) Hsf Hrf Hb) as [Hw Hinto].
    cbn [run_r]. rewrite Hx, Hw, Hrd, Hinto. cbn [bind].
    apply (after_member kw kr known (f :: known) f s r (upd r f (s f)) rb i i1 rest (IH s rb Ek HM Hws Hds Hsig) Hws Hsf);
      auto using upd_eq, upd_neq, in_cons. intros g [<-|Hg]; auto.
  - (* the signature: written as a member, found by the search *)
    destruct (run_w_write _ _ _ _ _ _ HR) as (x & b & rb & Hx & Hb & Ek & ->). rewrite <- app_assoc in Hbytes.
    cbn [emitted] in Hds, Hdr. apply defined_on_tl in Hds, Hdr. destruct Hds as [Hsf Hds], Hdr as [Hrf Hdr].
    unfold is_u32, kind_of in Hu32. rewrite Hx in Hu32. cbn [option_map] in Hu32.
    destruct (f_kind x) as [t| |] eqn:Hk; try discriminate. destruct t; try discriminate.
    unfold field_bytes in Hb. rewrite Hk, Hsig in Hb. injection Hb as <-.
    rewrite Z.mod_small in Hbytes by exact sig_range.
    destruct (scan_over sp (S (length (s_data i))) i (rb ++ rest) Hi sig_range Hbytes) as (i1 & Hsc & Hi1 & Ha1 & Hg1).
    cbn [run_r]. rewrite Hsc. cbn [bind fst snd]. rewrite <- Hsig.
    apply (after_member kw kr known (sp_field sp :: known) (sp_field sp) s r (upd r (sp_field sp) (s (sp_field sp))) rb i i1 rest
             (IH s rb Ek HM Hws Hds Hsig) Hws Hsf); auto using upd_eq, upd_neq, in_cons. intros g [<-|Hg]; auto.
  - (* a vector: resized to the count the writer derived, then filled *)
    cbn [emitted] in Hds, Hdr. apply defined_on_tl in Hds, Hdr. destruct Hds as [Hsf Hds], Hdr as [Hrf Hdr].
    assert (Hkind := Hvec). unfold is_vec, kind_of in Hkind. destruct (ff f) as [x|] eqn:Hx; [|discriminate]. cbn [option_map] in Hkind.
    destruct (f_kind x) as [|?|ee] eqn:Hk; try discriminate.
    assert (Hcont : (is_vec f || is_arr f) = true) by (rewrite Hvec; reflexivity).
    destruct (cont_bytes s f Hws Hcont Hsf) as [bb Esf]. destruct (cont_bytes r f Hwr Hcont Hrf) as [old Erf].
    destruct (whole_count M e f s bb Hc HM Hws Hcont Esf) as [Hev _]. destruct (whole_count M e2 f s bb Hc2 HM Hws Hcont Esf) as [Hev2 Hsm].
    destruct (elem_count M e1 f s bb Hc1 HM Hws Hcont Esf) as [Hev1 Hmul].
    destruct (run_w_bytes _ _ _ _ _ _ _ bb HR Hev Esf) as (rb & Ek & ->). rewrite <- app_assoc in Hbytes.
    destruct (read_over i bb _ Hi Hbytes) as (i1 & Hrd & Hi1 & Ha1 & Hg1).
    assert (Helt : elt_of cs f = ee) by (unfold elt_of; rewrite Hx, Hk; reflexivity). rewrite Helt in *.
    pose proof (zlen_nonneg bb) as Hnn.
    set (buf := ztake (zlen bb) old ++ zeros (zlen bb - zlen old)).
    assert (Hbuf : zlen buf = zlen bb) by (apply zlen_resize; lia).
    cbn [run_r]. rewrite (eval_as_agree U64 e1 r s known Hso1 Hin1 Hag), Hev1. cbn [bind]. rewrite Hx, Erf, Hk. cbn [kelt]. rewrite Hmul.
    replace (cap <? zlen bb) with false by lia. fold buf.
    rewrite (eval_as_agree I64 e2 (upd r f (VBytes buf)) s known Hso2 Hin2), Hev2
      by (intros g Hg; rewrite upd_neq by (intros ->; contradiction); auto).
    cbn [bind]. rewrite upd_eq, Hrd. replace (zlen buf <? zlen bb) with false by lia. rewrite <- Hbuf, zdrop_all, app_nil_r.
    apply (after_member kw kr known known f s r (upd (upd r f (VBytes buf)) f (VBytes bb)) rb i i1 rest
             (IH s rb Ek HM Hws Hds Hsig) Hws); auto; try congruence.
    { rewrite upd_eq. auto. } { intros g Hg. rewrite !upd_neq by exact Hg. reflexivity. }
  - (* an array of fixed length, written and read with the same count expression *)
    cbn [emitted] in Hds, Hdr. apply defined_on_tl in Hds, Hdr. destruct Hds as [Hsf Hds], Hdr as [Hrf Hdr].
    assert (Hkind := Harr). unfold is_arr, kind_of in Hkind. destruct (ff f) as [x|] eqn:Hx; [|discriminate]. cbn [option_map] in Hkind.
    destruct (f_kind x) as [|ee nn|] eqn:Hk; try discriminate.
    pose proof (Hws f x Hx) as Hshape. pose proof (Hwr f x Hx) as Hshr. unfold shape_ok in Hshape, Hshr. rewrite Hk in Hshape, Hshr.
    destruct (s f) as [|bb|] eqn:Esf; try contradiction. destruct (r f) as [|old|] eqn:Erf; try contradiction.
    assert (Hcont : (is_vec f || is_arr f) = true) by (rewrite Harr; apply orb_true_r).
    destruct (whole_count [] e f s bb Hc (M_sound_nil s) Hws Hcont Esf) as [Hev _].
    destruct (whole_count [] e f r old Hc (M_sound_nil r) Hwr Hcont Erf) as [Hevr _].
    destruct (run_w_bytes _ _ _ _ _ _ _ bb HR Hev Esf) as (rb & Ek & ->). rewrite <- app_assoc in Hbytes.
    destruct (read_over i bb _ Hi Hbytes) as (i1 & Hrd & Hi1 & Ha1 & Hg1).
    assert (Hlen : zlen old = zlen bb) by lia.
    cbn [run_r]. rewrite Hevr. cbn [bind]. rewrite Erf, Hlen, Hrd, Z.ltb_irrefl. rewrite <- Hlen, zdrop_all, app_nil_r.
    apply (after_member kw kr known known f s r (upd r f (VBytes bb)) rb i i1 rest
             (IH s rb Ek HM Hws Hds Hsig) Hws); auto using upd_neq; try congruence.
    rewrite upd_eq. auto.
  - (* padding: zeros written, skipped by a seek of the same length *)
    cbn [run_w] in HR. destruct (eval_as cs call I64 s no_locals e) as [n|] eqn:En; [|discriminate]. cbn [bind] in HR.
    destruct ((n <? 0) || (cap <? n)) eqn:Ecap; [discriminate|].
    destruct (run_w cs call cap kw s no_locals) as [[st rb]|] eqn:Ek; [|discriminate].
    cbn [bind fst snd] in HR. injection HR as -> <-. rewrite <- app_assoc in Hbytes.
    destruct (seek_over i (zeros n) _ Hi Hbytes) as (Hi1 & Ha1 & Hg1). rewrite zlen_zeros in Hi1, Ha1, Hg1 by lia.
    cbn [run_r]. rewrite (eval_as_agree I64 e r s known Hso Hin Hag), En. cbn [bind].
    rewrite <- Hg1. exact (IH s rb Ek HM Hws Hds Hsig r _ rest Hi1 Ha1 Hag Hwr Hdr).
  - (* a branch on members already read *)
    cbn [run_w] in HR. destruct (evalc s no_locals c) as [x|] eqn:Ec; [|discriminate]. cbn [bind] in HR.
    unfold rt_post. cbn [emitted run_r] in *. rewrite Ec in *.
    rewrite (eval_frame cs call c r s) by (try assumption; intros g Hg; apply Hag, Hin, Hg). rewrite Ec. cbn [bind].
    destruct (fst x =? 0); [apply (IHb s bytes HR)|apply (IHa s bytes HR)]; assumption.
Qed.

Theorem pair_sound W : forall M known R s bytes,
  pair_wr M known W R = true ->
  run_w cs call cap W s no_locals = Ok (s, bytes) ->
  M_sound cs M s -> wf_state s -> defined_on (emitted W s) s ->
  s (sp_field sp) = VInt (sp_sig sp) ->
  forall r i rest, nstream i -> s_after i = bytes ++ rest ->
    agree_on known r s -> wf_state r -> defined_on (emitted W s) r ->
  exists r' i', run_r cs call sp cap R r no_locals i = Ok (r', i') /\ rt_post W s r known rest r' i' /\
    (s_good i = true -> s_good i' = true).
Proof using cap_ge sig_range. intros M known R s bytes HP. exact (paired_sound M known W R (pair_wr_paired W M known R HP) s bytes). Qed.

End RT.
