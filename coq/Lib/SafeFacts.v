(* SafeFacts.v — memory safety of the decoders (C10): a reflective check on read programs, proved
   sound: if rd_safe p = true then running p on ANY byte stream from ANY state whose scalar members
   hold values of their declared types never writes beyond the capacity of a destination container
   (Err EOOBWrite), whatever lengths the input declares. *)
From VB Require Import Base IR Sem BaseFacts StreamFacts EvalFacts CallFacts Roundtrip.
Local Open Scope Z_scope.

Section Safe.
Variable cs : classes.

Lemma fields_forall (P : fdef -> bool) : forallb P (flat_map c_fields cs) = true ->
  forall f x, find_field cs f = Some x -> P x = true.
Proof.
  intros H f x Hx. unfold find_field, find_class in Hx. destruct (find _ cs) as [d|] eqn:Hd; [|discriminate].
  apply find_some in Hd, Hx. apply (proj1 (forallb_forall _ _) H). apply in_flat_map. exists d. split; [apply Hd|apply Hx].
Qed.

Definition ffk (f : Z) : option fkind := option_map f_kind (find_field cs f).
Definition eltw (f : Z) : Z := match ffk f with Some k => kelt k | None => 0 end.

(* the request is computed from the destination's own size: (size / elt) * elt bytes *)
Definition size_based (f : Z) (e : expr) : bool :=
  match e with
  | ECast I64 (ESize g) => (g =? f) && (eltw f =? 1)
  | ECast I64 (EBin OMul (ESize g) (ESizeofT k)) => (g =? f) && (eltw f =? k) && (0 <? k) && (k <=? 8)
  | _ => false
  end.

Definition small_unsigned (g : Z) : bool :=
  match ffk g with Some (KScalar U8) | Some (KScalar U16) | Some (KScalar U32) => true | _ => false end.

(* the two tests of rd_safe' (note_resize on the resize, after_resize1 on the request) as one predicate; nothing below uses it *)
Definition after_resize (f : Z) (e0 e1 : expr) : bool :=
  match e0 with
  | EField g =>
      small_unsigned g && negb (g =? f) &&
      match e1 with
      | EField g' => (g' =? g) && (eltw f =? 1)
      | ECast I64 (EField g') => (g' =? g) && (eltw f =? 1)
      | EBin OMul (EField g') (ESizeofT k) => (g' =? g) && (eltw f =? k) && (0 <? k) && (k <=? 8)
      | _ => false
      end
  | _ => false
  end.

Definition is_vecf (f : Z) : bool := match ffk f with Some (KVec _) => true | _ => false end.

(* `last`: container f was resized to (value of the unsigned member g) elements by the statement just before *)
Definition note_resize (f : Z) (e0 : expr) : option (Z * Z) :=
  match e0 with
  | EField g => if small_unsigned g && negb (g =? f) && is_vecf f then Some (f, g) else None
  | _ => None
  end.

(* the request repeats the count g that container f was just resized to (in elements, or in bytes = count * sizeof) *)
Definition after_resize1 (f g : Z) (e1 : expr) : bool :=
  match e1 with
  | EField g' => (g' =? g) && (eltw f =? 1)
  | ECast I64 (EField g') => (g' =? g) && (eltw f =? 1)
  | EBin OMul (EField g') (ESizeofT k) => (g' =? g) && (eltw f =? k) && (0 <? k) && (k <=? 8)
  | _ => false
  end.

Fixpoint rd_safe' (last : option (Z * Z)) (p : prog) : bool :=
  match p with
  | PEnd | PRet _ | PThrow | PUnsupported => true
  | PRead _ k | PWrite _ k | PSeek _ k | PZero _ k | PAssign _ _ k | PDecl _ _ _ k | PSet _ _ k | PScan k | PWriteBytes _ _ k => rd_safe' None k
  | PReadBytes f e k =>
      (size_based f e || match last with Some (f0, g) => (f0 =? f) && after_resize1 f g e | None => false end) && rd_safe' None k
  | PResize f e0 k => rd_safe' (note_resize f e0) k
  | PIf _ a b => rd_safe' None a && rd_safe' None b
  end.
Definition rd_safe (p : prog) : bool := rd_safe' None p.

Definition sc_ok (s : state) : Prop :=
  forall f x t z, find_field cs f = Some x -> f_kind x = KScalar t -> s f = VInt z -> in_type t z = true.

Lemma norm64_id t z : rank t = 4 -> 0 <= z < 2 ^ 62 -> norm t z = z.
Proof. intros Ht H. apply norm_id. destruct t; try discriminate; unfold in_type, in_range, bits; cbn [width signed]; lia. Qed.

Lemma mul_u64 a ta b : common ta U64 = U64 -> 0 <= a -> 0 <= b -> a * b < 2 ^ 62 -> a < 2 ^ 62 -> b < 2 ^ 62 ->
  eval_bin OMul (a, ta) (b, U64) = Ok (a * b, U64).
Proof.
  intros Hc Ha Hb Hab Ha' Hb'. unfold eval_bin. rewrite Hc. unfold arith. cbn [signed].
  rewrite (norm64_id U64 a), (norm64_id U64 b), norm64_id by (reflexivity || lia). reflexivity.
Qed.

Section Run.
Variable call : target -> mid -> state -> res (Z * ity).
Variable sp : scan_params.
Variable cap : Z.
Hypothesis Hcall : forall tg m s, call tg m s <> Err EOOBWrite.
Hypothesis Hsig : forall x t, find_field cs (sp_field sp) = Some x -> f_kind x = KScalar t -> in_type t (sp_sig sp) = true.
Hypothesis Hcap : cap < 2 ^ 60.          (* the allocation cap of the host (256 MiB in the property) *)
Hypothesis Hke : forall f x, find_field cs f = Some x -> 0 <= kelt (f_kind x).
Hypothesis Hks : forall f x w, find_field cs f = Some x -> ksize (f_kind x) = Some w -> 0 <= w < 2 ^ 60.
(* Hke, Hks: met by fields_forall from one forallb over the members of all classes (Inst/SafeEq) *)

(* 2^60 lies below the 2^62 under which norm64_id and mul_u64 keep 64-bit arithmetic on lengths exact; the cap (Hcap) and the
   fixed-size members (Hks) are held to the same bound, so that a resize and a read into a member keep it (st_ok_upd) *)
Definition st_ok (s : state) : Prop := sc_ok s /\ forall f x b, find_field cs f = Some x -> s f = VBytes b -> zlen b < 2 ^ 60.

(* what a member may be overwritten with *)
Definition val_ok (f : Z) (v : value) : Prop :=
  match v with
  | VInt z => forall x t, find_field cs f = Some x -> f_kind x = KScalar t -> in_type t z = true
  | VBytes b => zlen b < 2 ^ 60
  | VUndef => True
  end.

Lemma st_ok_upd s f v : st_ok s -> val_ok f v -> st_ok (upd s f v).
Proof.
  intros [H1 H2] Hv. split.
  - intros g y t z Hy Hk Hg. unfold upd in Hg. destruct (Z.eqb_spec g f) as [->|]; [|eapply H1; eauto].
    subst v. exact (Hv y t Hy Hk).
  - intros g y b Hy Hg. unfold upd in Hg. destruct (g =? f); [|eapply H2; eauto]. subst v. exact Hv.
Qed.

(* the states of the round-trip theorem are among those of this one *)
Lemma wf_st_ok s : wf_state cs s -> st_ok s.
Proof using Hks.
  intros W. split.
  - intros f x t z Hx Hk Hv. specialize (W f x Hx). unfold shape_ok in W. rewrite Hk, Hv in W. exact W.
  - intros f x b Hx Hv. specialize (W f x Hx). unfold shape_ok in W. rewrite Hv in W.
    destruct (f_kind x) as [t|e n|e] eqn:Hk; try contradiction; [|lia].
    rewrite W. apply (Hks f x (e * n) Hx). rewrite Hk. reflexivity.
Qed.

Lemma val_ok_int f x t z : find_field cs f = Some x -> f_kind x = KScalar t -> in_type t z = true -> val_ok f (VInt z).
Proof. intros Hx Hk Hz y t' Hy Hk'. rewrite Hx in Hy. injection Hy as <-. rewrite Hk in Hk'. injection Hk' as <-. exact Hz. Qed.

Definition resized (last : option (Z * Z)) (s : state) : Prop :=
  match last with
  | None => True
  | Some (f, g) => exists v b, s g = VInt v /\ s f = VBytes b /\ zlen b = v * eltw f /\ small_unsigned g = true
  end.

Lemma eval_as_no_oobw t s l e : eval_as cs call t s l e <> Err EOOBWrite.
Proof using Hcall. apply eval_as_not; [reflexivity|exact Hcall]. Qed.

Lemma scan_loop_no_oobw n : forall tmp i, scan_loop sp n tmp i <> Err EOOBWrite.
Proof.
  induction n as [|n IH]; intros tmp i; cbn [scan_loop]; [discriminate|].
  destruct (s_read 4 i) as [got s1]. destruct (_ =? sp_sig sp); [discriminate|]. destruct (scan_stop sp s1); [discriminate|]. apply IH.
Qed.
Lemma scan_loop_value n : forall tmp i r, scan_loop sp n tmp i = Ok r -> fst r = sp_sig sp.
Proof.
  induction n as [|n IH]; intros tmp i r H; cbn [scan_loop] in H; [discriminate|].
  destruct (s_read 4 i) as [got s1]. destruct (merge_scalar 4 tmp got =? sp_sig sp) eqn:E.
  - inversion H; subst. cbn. apply Z.eqb_eq. exact E.
  - destruct (scan_stop sp s1); [discriminate|]. eapply IH; eauto.
Qed.

(* reading into a member: never beyond it (read_into itself cannot), and the member stays well-formed *)
Lemma read_into_ok s f x w got v : st_ok s -> find_field cs f = Some x -> ksize (f_kind x) = Some w ->
  zlen got <= Z.max 0 w -> read_into x (s f) got = Ok v -> val_ok f v.
Proof.
  intros [_ Hs] Hx Hw Hlen. pose proof (Hks f x w Hx Hw) as Hwb. unfold read_into.
  destruct (f_kind x) as [t|e n|e] eqn:Hk; [| |discriminate].
  - destruct (zlen got =? width t); [intros E; injection E as <-; exact (val_ok_int f x t _ Hx Hk (norm_in_type _ _))|].
    destruct (s f); intros E; try discriminate; injection E as <-; [exact (val_ok_int f x t _ Hx Hk (norm_in_type _ _))|exact I].
  - cbn [ksize] in Hw. injection Hw as <-.
    destruct (s f) as [|b|] eqn:Hf; intros E; try discriminate.
    + injection E as <-. cbn. rewrite zlen_app. pose proof (Hs f x b Hx Hf).
      unfold zdrop, zlen in *. rewrite skipn_length. lia.
    + destruct (zlen got =? e * n); injection E as <-; cbn; lia.
Qed.
Lemma small_unsigned_range s g v : sc_ok s -> small_unsigned g = true -> s g = VInt v -> 0 <= v < 2 ^ 32.
Proof.
  intros Hs Hg Hv. unfold small_unsigned, ffk in Hg. destruct (find_field cs g) as [x|] eqn:Hx; [|discriminate]. cbn in Hg.
  destruct (f_kind x) as [t| |] eqn:Hk; try discriminate.
  pose proof (Hs g x t v Hx Hk Hv) as Ht.
  destruct t; try discriminate; unfold in_type, in_range in Ht; cbn in Ht; lia.
Qed.

Lemma eval_field_small s l g v : small_unsigned g = true -> s g = VInt v ->
  exists t, eval cs call s l (EField g) = Ok (v, t) /\ common t U64 = U64.
Proof.
  intros Hg Hv. unfold small_unsigned, ffk in Hg. cbn [eval]. destruct (find_field cs g) as [x|] eqn:Hx; [|discriminate]. cbn in Hg.
  rewrite Hv. destruct (f_kind x) as [t| |]; try discriminate. exists t. split; [reflexivity|]. destruct t; try discriminate; reflexivity.
Qed.

(* a container of a member the check accepts belongs to a known member, hence is below 2^60 bytes *)
Lemma eltw_bound s f b : st_ok s -> 0 < eltw f -> s f = VBytes b -> zlen b < 2 ^ 60.
Proof.
  intros [_ Hs] He Hf. unfold eltw, ffk in He. destruct (find_field cs f) as [x|] eqn:Hx; [|cbn in He; lia]. eapply Hs; eauto.
Qed.

(* injection and rewrite would otherwise unfold norm into its div/mod body in the two lemmas below *)
#[local] Opaque norm.

Lemma size_based_fits s l f e n b : st_ok s -> size_based f e = true -> s f = VBytes b ->
  eval_as cs call I64 s l e = Ok n -> n <= zlen b < 2 ^ 60.
Proof.
  intros Hs Hsb Hf En. pose proof (zlen_nonneg b) as Hn.
  unfold size_based in Hsb. destruct e as [| | | | | | | | |t0 e'|]; try discriminate. destruct t0; try discriminate.
  unfold eval_as in En. cbn [eval] in En.
  destruct e' as [| |g| | | | |o a0 b0| | |]; try discriminate.
  - apply andb_prop in Hsb. destruct Hsb as [Hg He1]. apply Z.eqb_eq in Hg, He1. subst g.
    pose proof (eltw_bound s f b Hs ltac:(lia) Hf) as Hb.
    cbn [eval] in En. unfold eltw, ffk in He1. destruct (find_field cs f) as [x|]; [|discriminate]. rewrite Hf in En.
    cbn [bind fst option_map] in *. rewrite He1, Z.div_1_r in En.
    rewrite !(norm64_id I64 (zlen b)) in En by (reflexivity || lia). injection En as <-. lia.
  - destruct o; try discriminate. destruct a0 as [| |g| | | | | | | |]; try discriminate. destruct b0 as [| | | |k| | | | | |]; try discriminate.
    apply andb_prop in Hsb. destruct Hsb as [Hsb Hk8]. apply andb_prop in Hsb. destruct Hsb as [Hsb Hk0].
    apply andb_prop in Hsb. destruct Hsb as [Hg He1]. apply Z.eqb_eq in Hg, He1. subst g.
    apply Z.ltb_lt in Hk0.
    pose proof (eltw_bound s f b Hs ltac:(lia) Hf) as Hb.
    cbn [eval] in En. unfold eltw, ffk in He1. destruct (find_field cs f) as [x|]; [|discriminate]. rewrite Hf in En.
    cbn [bind fst option_map] in *. rewrite He1 in En.
    assert (Hq : 0 <= zlen b / k <= zlen b) by (split; [apply Z.div_pos; lia|apply Z.div_le_upper_bound; nia]).
    assert (Hm : (zlen b / k) * k <= zlen b) by (pose proof (Z.mul_div_le (zlen b) k Hk0); lia).
    rewrite mul_u64 in En by (reflexivity || nia). cbn [bind fst] in En.
    rewrite !(norm64_id I64 (zlen b / k * k)) in En by (reflexivity || nia).
    injection En as <-. lia.
Qed.

Lemma after_resize_fits s l f g e n v (b : list Z) : st_ok s -> after_resize1 f g e = true -> small_unsigned g = true ->
  s g = VInt v -> zlen b = v * eltw f ->
  eval_as cs call I64 s l e = Ok n -> n <= zlen b < 2 ^ 60.
Proof.
  intros Hs Ha Hg Hv Hb En.
  pose proof (small_unsigned_range s g v (proj1 Hs) Hg Hv) as Hr.
  destruct (eval_field_small s l g v Hg Hv) as (t & Ev & Ht).
  assert (Hfit : forall k, eltw f = k -> 0 < k <= 8 -> norm I64 (v * k) <= zlen b < 2 ^ 60).
  { intros k He1 Hk. rewrite norm64_id by (reflexivity || nia).
    rewrite Hb, He1. nia. }
  unfold eval_as in En. unfold after_resize1 in Ha. destruct e as [|g'| | | | | |o a0 b0| |t0 e'|]; try discriminate.
  - apply andb_prop in Ha. destruct Ha as [Hgg He1]. apply Z.eqb_eq in Hgg, He1. subst g'.
    rewrite Ev in En. cbn [bind fst] in En. injection En as <-. rewrite <- (Z.mul_1_r v). apply Hfit; [exact He1|lia].
  - destruct o; try discriminate. destruct a0 as [|g'| | | | | | | | |]; try discriminate. destruct b0 as [| | | |k| | | | | |]; try discriminate.
    apply andb_prop in Ha. destruct Ha as [Ha Hk8]. apply andb_prop in Ha. destruct Ha as [Ha Hk0].
    apply andb_prop in Ha. destruct Ha as [Hgg He1]. apply Z.eqb_eq in Hgg, He1. subst g'.
    cbn [eval] in En, Ev. rewrite Ev in En. cbn [bind fst] in En.
    rewrite mul_u64 in En by (assumption || nia). cbn [bind fst] in En.
    injection En as <-. apply Hfit; [exact He1|lia].
  - destruct t0; try discriminate. destruct e' as [|g'| | | | | | | | |]; try discriminate.
    apply andb_prop in Ha. destruct Ha as [Hgg He1]. apply Z.eqb_eq in Hgg, He1. subst g'.
    cbn [eval] in En, Ev. rewrite Ev in En. cbn [bind fst] in En. injection En as <-.
    rewrite (norm64_id I64 v) by (reflexivity || lia).
    rewrite <- (Z.mul_1_r v). apply Hfit; [exact He1|lia].
Qed.

Theorem rd_safe_sound : forall p last, rd_safe' last p = true ->
  forall s l i, st_ok s -> resized last s -> run_r cs call sp cap p s l i <> Err EOOBWrite.
Proof using Hcall Hsig Hcap Hke Hks.
  induction p as [|e| | |f k IH|f k IH|f e k IH|f e k IH|f e k IH|e k IH|e k IH|f e k IH|x t e k IH|x e k IH|k IH|c a IHa b IHb];
    intros last H s l i Hs Hr; cbn [run_r]; try discriminate; cbn [rd_safe'] in H.
  - destruct (find_field cs f) as [x|] eqn:Hx; [|discriminate]. destruct (ksize (f_kind x)) as [w|] eqn:Hw; [|discriminate].
    pose proof (s_read_len w i) as Hlen. destruct (s_read w i) as [got i']. cbn [fst] in Hlen.
    apply bind_not; [apply read_into_not; reflexivity|intros v Ev].
    apply (IH None H); [|exact I]. apply st_ok_upd; [exact Hs|]. eapply read_into_ok; eauto.
  - (* PReadBytes: the request fits the destination, so whatever the stream delivers does *)
    apply andb_prop in H. destruct H as [Hsafe Hk].
    apply bind_not; [apply eval_as_no_oobw|intros n En].
    destruct (s f) as [z|b|] eqn:Hf; try discriminate.
    pose proof (s_read_len n i) as Hlen. destruct (s_read n i) as [got i']. cbn [fst] in Hlen.
    pose proof (zlen_nonneg b) as Hb0.
    assert (Hfit : n <= zlen b < 2 ^ 60).
    { apply orb_prop in Hsafe. destruct Hsafe as [Hsb|Hlast]; [eapply size_based_fits; eauto|].
      destruct last as [[f0 g]|]; [|discriminate]. apply andb_prop in Hlast. destruct Hlast as [Hff Har].
      apply Z.eqb_eq in Hff. subst f0. destruct Hr as (v & b' & Hv & Hf' & Hbl & Hsu).
      rewrite Hf in Hf'. injection Hf' as <-. eapply after_resize_fits; eauto. }
    destruct (zlen b <? zlen got) eqn:E; [lia|].
    apply (IH None Hk); [|exact I]. apply st_ok_upd; [exact Hs|]. cbn. rewrite zlen_app, zlen_zdrop; lia.
  - apply bind_not; [apply eval_as_no_oobw|intros n En].
    destruct (find_field cs f) as [x|] eqn:Hx; [|discriminate]. destruct (s f) as [z|b|] eqn:Hf; try discriminate.
    destruct (cap <? n * kelt (f_kind x)) eqn:Ec; [discriminate|].
    set (nb := n * kelt (f_kind x)) in *. set (newb := ztake nb b ++ zeros (nb - zlen b)).
    assert (Hn0 : 0 <= n) by (apply eval_as_in_type in En; unfold in_type, in_range in En; cbn in En; lia).
    assert (Hlen : zlen newb = nb) by (apply zlen_resize; unfold nb; pose proof (Hke f x Hx); nia).
    apply (IH (note_resize f e) H); [apply st_ok_upd; [exact Hs|cbn; lia]|].
    (* after  f.resize(g)  with g a small unsigned member: g holds v, f now holds v * elt bytes *)
    unfold note_resize. destruct e as [|g| | | | | | | | |]; try exact I.
    destruct (small_unsigned g && negb (g =? f) && is_vecf f) eqn:Ecnd; [|exact I].
    apply andb_prop in Ecnd. destruct Ecnd as [Ecnd _]. apply andb_prop in Ecnd. destruct Ecnd as [Hsu Hne].
    apply negb_true_iff, Z.eqb_neq in Hne.
    unfold eval_as in En. cbn [eval] in En.
    pose proof Hsu as Hsu'. unfold small_unsigned, ffk in Hsu'. destruct (find_field cs g) as [y|]; [|discriminate].
    destruct (s g) as [v| |] eqn:Hg; try discriminate. destruct (f_kind y) as [t| |]; try discriminate.
    cbn [bind fst] in En. injection En as En.
    pose proof (small_unsigned_range s g v (proj1 Hs) Hsu Hg) as Hvr.
    rewrite norm64_id in En by (reflexivity || lia). subst n.
    exists v, newb. unfold upd. rewrite Z.eqb_refl. replace (g =? f) with false by lia.
    split; [exact Hg|]. split; [reflexivity|]. split; [|exact Hsu]. rewrite Hlen. unfold nb, eltw, ffk. rewrite Hx. reflexivity.
  - apply bind_not; [apply eval_as_no_oobw|intros]. apply (IH None H); [exact Hs|exact I].
  - destruct (find_field cs f) as [x|] eqn:Hx; [|discriminate]. destruct (f_kind x) as [t| |] eqn:Hk; try discriminate.
    apply bind_not; [apply eval_as_no_oobw|intros v Ev].
    apply (IH None H); [|exact I]. apply st_ok_upd; [exact Hs|].
    exact (val_ok_int f x t v Hx Hk (eval_as_in_type cs call t s l e v Ev)).
  - apply bind_not; [apply eval_as_no_oobw|intros]. apply (IH None H); [exact Hs|exact I].
  - destruct (l x) as [[v0 t0]|]; [|discriminate].
    apply bind_not; [apply eval_as_no_oobw|intros]. apply (IH None H); [exact Hs|exact I].
  - apply bind_not; [apply scan_loop_no_oobw|intros r Er].
    apply (IH None H); [|exact I]. rewrite (scan_loop_value _ _ _ _ Er). apply st_ok_upd; [exact Hs|exact Hsig].
  - apply andb_prop in H. destruct H as [Ha Hb].
    apply bind_not; [apply eval_not; [reflexivity|exact Hcall]|intros x _].
    destruct (fst x =? 0); [apply (IHb None Hb)|apply (IHa None Ha)]; auto; exact I.
Qed.
End Run.

End Safe.
