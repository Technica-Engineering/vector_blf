(* CallFacts.v — which errors expressions can produce.  Evaluation, function bodies (calculateObjectSize & co) and the
   calls between them fail only with EUB, EType, EThrow, EUnsupported or EFuel.  The four errors of the container and
   stream operations — EOOBRead, EOOBWrite, EAlloc, ESpin — arise in run_w / run_r / scan_loop alone, so a statement
   "this program never returns Err x" for one of them needs to look at those operations only. *)
From VB Require Import Base IR Sem.
Local Open Scope Z_scope.
Set Default Proof Using "Type".

Definition stream_err (e : err) : bool :=
  match e with EOOBRead | EOOBWrite | EAlloc | ESpin => true | _ => false end.

Section CF.
Variable cs : classes.
Variable x0 : err.
Hypothesis Hx0 : stream_err x0 = true.

Lemma other_err {A} (e : err) : stream_err e = false -> @Err A e <> Err x0.
Proof using Hx0. intros H E. congruence. Qed.

(* closes a goal  r <> Err x0  where r is a success or one of the other errors *)
Ltac other := first [discriminate | apply other_err; reflexivity].

(* read_into fails with EType alone *)
Lemma read_into_not x old got : read_into x old got <> Err x0.
Proof using Hx0.
  unfold read_into. destruct (f_kind x); destruct old;
    repeat match goal with |- context [if ?c then _ else _] => destruct c end; other.
Qed.

Lemma bind_not {A B} (r : res A) (f : A -> res B) :
  r <> Err x0 -> (forall a, r = Ok a -> f a <> Err x0) -> bind r f <> Err x0.
Proof. intros Hr Hf. destruct r as [a|e]; cbn [bind]; [apply Hf; reflexivity|]. intros E. apply Hr. injection E as ->. reflexivity. Qed.

Lemma eval_bin_not o x y : eval_bin o x y <> Err x0.
Proof using Hx0.
  destruct x as [a ta], y as [b tb]. unfold eval_bin, arith.
  destruct o; repeat match goal with |- context [if ?c then _ else _] => destruct c end; other.
Qed.
Lemma eval_un_not o x : eval_un o x <> Err x0.
Proof using Hx0.
  destruct x as [a ta]. unfold eval_un, arith.
  destruct o; repeat match goal with |- context [if ?c then _ else _] => destruct c end; other.
Qed.

Section WithCall.
Variable call : target -> mid -> state -> res (Z * ity).
Hypothesis Hcall : forall tg m s, call tg m s <> Err x0.

Lemma eval_not e : forall s l, eval cs call s l e <> Err x0.
Proof using Hx0 Hcall.
  induction e as [z t|f|f|f|n|x|o a IHa|o a IHa b IHb|c IHc a IHa b IHb|t a IHa|tg m]; intros s l; cbn [eval].
  - other.
  - destruct (find_field cs f) as [x|]; [|other]. destruct (s f); try other. destruct (f_kind x); other.
  - destruct (find_field cs f) as [x|]; [|other]. destruct (s f); other.
  - destruct (find_field cs f) as [x|]; [|other]. destruct (ksize (f_kind x)); other.
  - other.
  - destruct (l x); other.
  - apply bind_not; [apply IHa|intros; apply eval_un_not].
  - destruct o; try (apply bind_not; [apply IHa|intros; apply bind_not; [apply IHb|intros; apply eval_bin_not]]);
      (apply bind_not; [apply IHa|intros xa _]; destruct (fst xa =? 0); try other; apply bind_not; [apply IHb|intros; other]).
  - apply bind_not; [apply IHc|intros xc _]. destruct (fst xc =? 0); [apply IHb|apply IHa].
  - apply bind_not; [apply IHa|intros; other].
  - apply Hcall.
Qed.

Lemma eval_as_not t s l e : eval_as cs call t s l e <> Err x0.
Proof using Hx0 Hcall. unfold eval_as. apply bind_not; [apply eval_not|intros; other]. Qed.

Lemma run_f_not p : forall s l, run_f cs call p s l <> Err x0.
Proof using Hx0 Hcall.
  induction p; intros s l; cbn [run_f]; try other.
  - apply eval_not.
  - apply bind_not; [apply eval_as_not|intros; apply IHp].
  - destruct (l x) as [[v t]|]; [|other]. apply bind_not; [apply eval_as_not|intros; apply IHp].
  - apply bind_not; [apply eval_not|intros x _]. destruct (fst x =? 0); [apply IHp2|apply IHp1].
Qed.

End WithCall.

Lemma call_n_not n : forall dyn tg m s, call_n cs n dyn tg m s <> Err x0.
Proof using Hx0.
  induction n as [|n IH]; intros dyn tg m s; cbn [call_n]; [other|].
  destruct tg; (destruct (resolve cs depth _ m) as [md|]; [|other]; destruct (m_ret md); [|other];
    apply bind_not; [apply run_f_not; apply IH|intros; other]).
Qed.

Lemma callf_not c : forall tg m s, callf cs c tg m s <> Err x0.
Proof using Hx0. intros. apply call_n_not. Qed.

End CF.

Section Spin.
Variable cs : classes.

Lemma eval_as_no_spin call t s l e : (forall tg m s, call tg m s <> Err ESpin) -> eval_as cs call t s l e <> Err ESpin.
Proof. intros H. apply eval_as_not; [reflexivity|exact H]. Qed.
Lemma callf_no_spin c : forall tg m s, callf cs c tg m s <> Err ESpin.
Proof. apply callf_not. reflexivity. Qed.

End Spin.
