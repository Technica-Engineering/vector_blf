(* FreshFacts.v — a freshly constructed object: untouched outside its own members, and
   well-shaped when a finite check over its members says so. *)
From VB Require Import Base IR Sem BaseFacts Roundtrip.
Local Open Scope Z_scope.
Set Default Proof Using "Type".

Section FF.
Variable cs : classes.

Lemma fold_upd_outside {A} (step : state -> A -> state) (key : A -> Z) (l : list A) :
  (forall s x f, f <> key x -> step s x f = s f) -> forall s f, ~ In f (map key l) -> fold_left step l s f = s f.
Proof.
  intros Hstep. induction l as [|x r IH]; intros s f Hf; cbn [fold_left]; [reflexivity|].
  rewrite IH by (intros Hin; apply Hf; right; exact Hin). apply Hstep. intros ->. apply Hf. left. reflexivity.
Qed.

Definition ids (c : cid) : list Z := map f_id (all_fields cs depth c).

Lemma fresh_outside c f : incl_b (map fst (all_ctor cs depth c)) (ids c) = true -> ~ In f (ids c) -> fresh cs c f = VUndef.
Proof.
  intros Hinc Hf. unfold fresh, fresh0.
  rewrite (fold_upd_outside _ f_id), (fold_upd_outside _ fst), (fold_upd_outside _ f_id); try exact Hf; try reflexivity.
  - intros s x g Hg. apply upd_neq. exact Hg.
  - intros s p g Hg. destruct (find_field cs (fst p)) as [x|]; [|reflexivity]. destruct (f_kind x); try reflexivity. apply upd_neq. exact Hg.
  - intros Hin. apply Hf. eapply incl_b_In; eauto.
  - intros s x g Hg. destruct (f_kind x); try reflexivity. destruct (f_init x); try reflexivity.
    destruct (callf cs c CDyn m _); [|reflexivity]. apply upd_neq. exact Hg.
Qed.

Definition shape_okb (x : fdef) (v : value) : bool :=
  match f_kind x, v with
  | _, VUndef => true
  | KScalar t, VInt z => in_type t z
  | KArray e n, VBytes b => zlen b =? e * n
  | KVec e, VBytes b => (zlen b mod e =? 0) && (zlen b <? 2 ^ 28)
  | _, _ => false
  end.
Lemma shape_okb_ok x v : shape_okb x v = true -> shape_ok x v.
Proof.
  unfold shape_okb, shape_ok. destruct (f_kind x); destruct v; intros H; try exact I; try discriminate; try exact H.
  - apply Z.eqb_eq. exact H.
  - apply andb_prop in H. destruct H as [H1 H2]. split; [apply Z.eqb_eq; exact H1|apply Z.ltb_lt; exact H2].
Qed.

(* the constructor chain assigns only to members of c (first conjunct), so everything outside ids c is VUndef (fresh_outside)
   and the sweep over ids c suffices *)
Definition fresh_wf_b (c : cid) : bool :=
  incl_b (map fst (all_ctor cs depth c)) (ids c) &&
  forallb (fun f => match find_field cs f with Some x => shape_okb x (fresh cs c f) | None => true end) (ids c).

Lemma fresh_wf c : fresh_wf_b c = true -> wf_state cs (fresh cs c).
Proof.
  unfold fresh_wf_b. intros H. apply andb_prop in H. destruct H as [H1 H2].
  intros f x Hx. destruct (in_dec Z.eq_dec f (ids c)) as [Hin|Hnin].
  - rewrite forallb_forall in H2. specialize (H2 f Hin). rewrite Hx in H2. apply shape_okb_ok. exact H2.
  - rewrite (fresh_outside c f H1 Hnin). unfold shape_ok. destruct (f_kind x); exact I.
Qed.

Definition defined_b (fs : list Z) (s : state) : bool :=
  forallb (fun f => match s f with VUndef => false | _ => true end) fs.
Lemma defined_b_ok fs s : defined_b fs s = true -> defined_on fs s.
Proof.
  unfold defined_b, defined_on. intros H f Hf. rewrite forallb_forall in H. specialize (H f Hf).
  intros E. rewrite E in H. discriminate.
Qed.

End FF.
