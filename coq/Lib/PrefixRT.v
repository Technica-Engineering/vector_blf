(* PrefixRT.v — C08, reader side at the level of the uncompressed stream: running a read program on a stream that was
   cut off gives — as long as the stream is still good afterwards — exactly what it gives on the complete stream. *)
From VB Require Import Base IR Sem BaseFacts StreamFacts ReadProg FileModel TermFacts ObjLoop.
Local Open Scope Z_scope.

Lemma read_prefix (a b : list Z) tg n : 0 <= tg -> 0 <= n -> n + tg <= zlen a ->
  ztake n (zdrop tg (a ++ b)) = ztake n (zdrop tg a).
Proof. intros H0 _. apply ztake_zdrop_app. exact H0. Qed.

Lemma wstream_after i : wstream i -> 0 <= s_pos i -> s_after i = zdrop (s_pos i) (s_data i).
Proof. intros W _. destruct (wstream_at i W) as (d & p & g & e & o & _ & ->). rewrite data_at. reflexivity. Qed.

Lemma got_spec n i : wstream i -> 0 <= s_pos i -> fst (s_read n i) = ztake (rd_len i n) (zdrop (s_pos i) (s_data i)).
Proof. intros W _. destruct (wstream_at i W) as (d & p & g & e & o & Hp & ->). rewrite read_at, data_at by exact Hp. reflexivity. Qed.

Lemma ws_data_len i : wstream i -> zlen (s_data i) = s_size i.
Proof. intros W. destruct (wstream_at i W) as (d & p & g & e & o & _ & ->). rewrite data_at. reflexivity. Qed.

(* a cut stream j' and the complete stream j at the same position: the data of j is the data of j' followed by X *)
Definition ext (X : list Z) (j' j : istream) : Prop :=
  wstream j' /\ wstream j /\ s_data j = s_data j' ++ X /\ s_pos j = s_pos j' /\ s_size j = s_size j' + zlen X /\
  s_good j = s_good j' /\ s_eof j = s_eof j'.

Lemma ext_at X j' j : ext X j' j ->
  exists d p g e o' o, p <= zlen d /\ j' = ustream_at d p g e o' /\ j = ustream_at (d ++ X) p g e o.
Proof.
  intros (W' & W & D & P & _ & G & E). destruct (wstream_at j' W') as (d & p & g & e & o' & Hp & ->).
  destruct (wstream_at j W) as (d2 & p2 & g2 & e2 & o & _ & ->). rewrite !data_at in D. cbn in P, G, E. subst. eauto 10.
Qed.

Lemma at_ext X d p g e o' o : p <= zlen d -> ext X (ustream_at d p g e o') (ustream_at (d ++ X) p g e o).
Proof.
  intros Hp. pose proof (zlen_nonneg X). unfold ext. rewrite !data_at. cbn. rewrite zlen_app.
  split; [apply wstream_ustream; lia|]. split; [apply wstream_ustream; rewrite zlen_app; lia|]. repeat split.
Qed.

Lemma ext_read X n j' j : ext X j' j -> 0 <= s_pos j' -> rd_short j' n = false ->
  fst (s_read n j) = fst (s_read n j') /\ ext X (snd (s_read n j')) (snd (s_read n j)) /\ 0 <= s_pos (snd (s_read n j')).
Proof.
  intros E Hp Hs. destruct (ext_at X j' j E) as (d & p & g & e & o' & o & Hd & -> & ->). unfold rd_short in Hs. cbn in Hp, Hs.
  pose proof (zlen_nonneg X). rewrite !read_at by (rewrite ?zlen_app; lia). cbn [fst snd]. rewrite zlen_app, Hs.
  replace (zlen d + zlen X <? n + p) with false by lia. set (len := if _ || _ then 0 else n).
  assert (0 <= len /\ p + len <= zlen d) by (unfold len; destruct (_ || _) eqn:E0; lia).
  split; [apply read_prefix; lia|]. split; [apply at_ext; lia|cbn; lia].
Qed.

Lemma ext_seek_back X off j' j : ext X j' j -> off <= 0 -> 0 <= s_pos j' + off ->
  ext X (s_seek off j') (s_seek off j).
Proof.
  intros E Ho Hp. destruct (ext_at X j' j E) as (d & p & g & e & o' & o & Hd & -> & ->). cbn in Hp.
  pose proof (zlen_nonneg X). rewrite !seek_at, zlen_app, !Z.min_l by (rewrite ?zlen_app; lia). apply at_ext. lia.
Qed.

(* at the end, with the failure recorded *)
Definition dead (i : istream) : Prop := wstream i /\ 0 <= s_pos i /\ s_pos i = s_size i /\ s_good i = false.

Lemma read_nonpos n i : wstream i -> n <= 0 ->
  let '(got, i') := s_read n i in
  got = [] /\ wstream i' /\ s_pos i' = s_pos i /\ s_size i' = s_size i /\ s_good i' = s_good i /\ s_eof i' = s_eof i.
Proof.
  intros W Hn. destruct (wstream_at i W) as (d & p & g & e & o & Hp & ->). rewrite read_at by exact Hp.
  replace (zlen d <? n + p) with false by lia. replace (n <=? 0) with true by lia. cbn [negb andb orb]. rewrite Z.add_0_r.
  split; [reflexivity|]. split; [apply wstream_ustream; exact Hp|repeat split].
Qed.

Lemma short_read_dead n i : wstream i -> 0 <= s_pos i -> rd_short i n = true ->
  dead (snd (s_read n i)) /\ s_eof (snd (s_read n i)) = true.
Proof.
  intros W H0 Hs. destruct (wstream_at i W) as (d & p & g & e & o & Hp & ->). unfold rd_short in Hs. cbn in H0, Hs.
  rewrite read_at by exact Hp. cbn [snd]. rewrite Hs. cbn [negb andb]. set (len := if _ || _ then 0 else _).
  assert (p + len = zlen d) by (unfold len; destruct (_ || _) eqn:E0; lia).
  split; [|reflexivity]. split; [apply wstream_ustream; lia|]. cbn. repeat split; lia.
Qed.

Lemma dead_failed i : dead i -> s_good i = false.
Proof. intros (_ & _ & _ & G). exact G. Qed.

Lemma dead_read n i : dead i -> dead (snd (s_read n i)).
Proof.
  intros (W & Hp & He & Hg).
  destruct (Z_le_gt_dec n 0) as [Hn|Hn].
  - pose proof (read_nonpos n i W Hn) as R. destruct (s_read n i) as [got i']. destruct R as (_ & A & B & C & D & _). cbn [snd].
    split; [exact A|]. split; [lia|]. split; [lia|]. rewrite D. exact Hg.
  - apply short_read_dead; [exact W|exact Hp|unfold rd_short; lia].
Qed.

Lemma dead_seek off i : 0 <= off -> dead i -> dead (s_seek off i).
Proof.
  intros Ho (W & Hp & He & Hg). destruct (ws_seek off i W) as (A & B & C & D & _).
  split; [exact A|]. split; [lia|]. split; [lia|]. rewrite D. exact Hg.
Qed.

(* the search on a stream at its end: the first read delivers nothing and ends it *)
Lemma dead_scan sp : forall n tmp i r i', dead i -> scan_loop sp n tmp i = Ok (r, i') -> dead i'.
Proof.
  apply (scan_inv sp dead dead (fun _ _ => True)). intros t i (W & Hp & He & Hg). cbv zeta.
  destruct (short_read_dead 4 i W Hp) as [D Ef]; [unfold rd_short; lia|]. split; [exact D|]. intros St. exfalso.
  rewrite scan_stop_failed in St by (apply dead_failed; exact D) || exact Ef. discriminate.
Qed.

Section Dead.
Variable cs : classes.
Variable call : target -> mid -> state -> res (Z * ity).
Variable sp : scan_params.
Variable cap : Z.
Hypothesis Hsig : sp_sig sp <> 0.

(* once a read has hit the end, no forward-seeking read program brings the stream back to good *)
Lemma dead_stays : forall p s l i s' i', seeks_ok cs p = true -> dead i ->
  run_r cs call sp cap p s l i = Ok (s', i') -> dead i'.
Proof using Hsig.
  intros p s l i s' i' Hs. apply (run_r_inv cs call sp cap (fun off => 0 <= off) dead); [| | |apply seeks_ok_fwd; exact Hs].
  - intros n j. apply dead_read.
  - intros off j. apply dead_seek.
  - intros j r j1. apply dead_scan.
Qed.
End Dead.

(* the cut stream sits at its end (a forward seek was clamped there); the complete stream is at or behind that point *)
Definition atend (X : list Z) (j' j : istream) : Prop :=
  wstream j' /\ wstream j /\ s_data j = s_data j' ++ X /\ s_size j = s_size j' + zlen X /\
  s_pos j' = s_size j' /\ s_size j' <= s_pos j /\ s_good j = s_good j' /\ s_eof j = s_eof j'.

Definition Sim (X : list Z) (j' j : istream) : Prop := 0 <= s_pos j' /\ (ext X j' j \/ atend X j' j).

Lemma atend_at X j' j : atend X j' j -> exists d q g e o' o,
  zlen d <= q <= zlen d + zlen X /\ j' = ustream_at d (zlen d) g e o' /\ j = ustream_at (d ++ X) q g e o.
Proof.
  intros (W' & W & D & _ & Pe & Pj & G & E).
  destruct (wstream_at j' W') as (d & p & g & e & o' & Hd & ->). destruct (wstream_at j W) as (d2 & q & g2 & e2 & o & Hq & ->).
  rewrite !data_at in D. cbn in Pe, Pj, G, E. subst. rewrite zlen_app in Hq. exists d, q. eauto 12.
Qed.

(* the two streams hold d and d ++ X, at positions p and q: the same, or p at the end of d and q in X *)
Lemma Sim_at X j' j : Sim X j' j -> exists d p q g e o' o,
  0 <= p <= zlen d /\ (q = p \/ p = zlen d /\ zlen d <= q <= zlen d + zlen X) /\
  j' = ustream_at d p g e o' /\ j = ustream_at (d ++ X) q g e o.
Proof.
  intros [Hp [E|A]].
  - destruct (ext_at X j' j E) as (d & p & g & e & o' & o & Hd & -> & ->). exists d, p, p. cbn in Hp. eauto 12.
  - destruct (atend_at X j' j A) as (d & q & g & e & o' & o & Hq & -> & ->). pose proof (zlen_nonneg d).
    exists d, (zlen d), q, g, e, o', o. split; [lia|]. split; [right; split; [reflexivity|exact Hq]|split; reflexivity].
Qed.

Lemma Sim_wstream X j' j : Sim X j' j -> wstream j' /\ wstream j.
Proof.
  intros S. destruct (Sim_at X j' j S) as (d & p & q & g & e & o' & o & Hd & Hq & -> & ->). pose proof (zlen_nonneg X).
  split; apply wstream_ustream; rewrite ?zlen_app; lia.
Qed.

Lemma Sim_data X j' j : Sim X j' j -> s_data j = s_data j' ++ X.
Proof. intros S. destruct (Sim_at X j' j S) as (d & p & q & g & e & o' & o & _ & _ & -> & ->). rewrite !data_at. reflexivity. Qed.

Lemma at_Sim X d p q g e o' o : 0 <= p <= zlen d -> (q = p \/ p = zlen d /\ zlen d <= q <= zlen d + zlen X) ->
  Sim X (ustream_at d p g e o') (ustream_at (d ++ X) q g e o).
Proof.
  intros Hp Hq. split; [apply Hp|]. destruct Hq as [->|[-> Hq]]; [left; apply at_ext; lia|right].
  unfold atend. rewrite !data_at. cbn. rewrite zlen_app.
  split; [apply wstream_ustream; lia|]. split; [apply wstream_ustream; rewrite zlen_app; lia|]. repeat split; lia.
Qed.

(* a read that the cut stream can serve: same bytes, still related; if it asked for at least one byte the cut stream was
   not at its end, and the two streams are at the same position afterwards *)
Lemma sim_read_served X n j' j : Sim X j' j -> rd_short j' n = false ->
  fst (s_read n j) = fst (s_read n j') /\ Sim X (snd (s_read n j')) (snd (s_read n j)) /\
  (0 < n -> ext X (snd (s_read n j')) (snd (s_read n j)) /\ s_pos (snd (s_read n j')) = s_pos j' + n).
Proof.
  intros [Hp [E|A]] Hs.
  - destruct (ext_read X n j' j E Hp Hs) as (A & B & C). split; [exact A|]. split; [split; [exact C|left; exact B]|].
    intros Hn. split; [exact B|]. destruct E as (W' & _). pose proof (ws_read n j' W') as R.
    destruct (s_read n j') as [g' k']. destruct R as (_ & _ & R & _). cbn [snd]. rewrite R, rd_full; [reflexivity|exact Hp|exact Hn|exact Hs].
  - (* at the end the cut stream serves only reads of nothing, which leave both streams where they are *)
    destruct (atend_at X j' j A) as (d & q & g & e & o' & o & Hq & -> & ->). unfold rd_short in Hs. cbn in Hs.
    pose proof (zlen_nonneg d).
    rewrite !read_at by (rewrite ?zlen_app; lia). cbn [fst snd]. rewrite zlen_app, Hs.
    replace (zlen d + zlen X <? n + q) with false by lia. replace (n <=? 0) with true by lia. cbn [orb negb andb].
    rewrite !Z.add_0_r. split; [reflexivity|]. split; [apply at_Sim; lia|lia].
Qed.

Lemma sim_read X n j' j : Sim X j' j -> rd_short j' n = false ->
  fst (s_read n j) = fst (s_read n j') /\ Sim X (snd (s_read n j')) (snd (s_read n j)).
Proof. intros S Hs. destruct (sim_read_served X n j' j S Hs) as (A & B & _). split; assumption. Qed.

Lemma sim_read_pos X n j' j : Sim X j' j -> rd_short j' n = false -> 0 < n ->
  fst (s_read n j) = fst (s_read n j') /\ ext X (snd (s_read n j')) (snd (s_read n j)) /\
  s_pos (snd (s_read n j')) = s_pos j' + n.
Proof. intros S Hs Hn. destruct (sim_read_served X n j' j S Hs) as (A & _ & C). split; [exact A|exact (C Hn)]. Qed.

Lemma sim_seek X off j' j : 0 <= off -> Sim X j' j -> Sim X (s_seek off j') (s_seek off j).
Proof.
  intros Ho S. destruct (Sim_at X j' j S) as (d & p & q & g & e & o' & o & Hd & Hq & -> & ->). pose proof (zlen_nonneg X).
  rewrite !seek_at, zlen_app by (rewrite ?zlen_app; lia). apply at_Sim; lia.
Qed.

Lemma scan_fuel_mono sp : forall n m tmp i r, scan_loop sp n tmp i = Ok r -> (n <= m)%nat -> scan_loop sp m tmp i = Ok r.
Proof.
  induction n as [|n IH]; intros m tmp i r H Hm; [discriminate|]. destruct m as [|m]; [lia|].
  cbn [scan_loop] in *. destruct (s_read 4 i) as [got i1]. destruct (_ =? sp_sig sp); [exact H|].
  destruct (scan_stop sp i1); [discriminate|]. apply IH; [exact H|lia].
Qed.

Section SimRun.
Variable cs : classes.
Variable call : target -> mid -> state -> res (Z * ity).
Variable sp : scan_params.
Variable cap : Z.
Hypothesis HR : rules_ok sp = true.
Hypothesis Hsig : sp_sig sp <> 0.
Variable X : list Z.

(* the search on the cut stream: either a read hit the end (the stream is dead), or the complete stream gives the same *)
Lemma scan_sim : forall n tmp j' j r j1', Sim X j' j -> scan_loop sp n tmp j' = Ok (r, j1') ->
  dead j1' \/ exists j1, scan_loop sp n tmp j = Ok (r, j1) /\ Sim X j1' j1.
Proof using call HR.
  induction n as [|n IH]; intros tmp j' j r j1' S H; [discriminate|]. cbn [scan_loop] in *.
  destruct (Sim_wstream X j' j S) as [W' W]. pose proof (proj1 S) as Hp0. destruct (rd_short j' 4) eqn:Sh.
  - (* the cut stream cannot serve 4 bytes: whatever happens next, it is dead *)
    pose proof (short_read_dead 4 j' W' Hp0 Sh) as [Dd De]. destruct (s_read 4 j') as [got' k']. cbn [snd] in Dd, De.
    destruct (_ =? sp_sig sp); [injection H as <- <-; left; exact Dd|].
    exfalso. rewrite scan_stop_failed in H by (apply dead_failed; exact Dd) || exact De. discriminate.
  - destruct (sim_read_pos X 4 j' j S Sh eq_refl) as (Eg & E1 & P1).
    destruct (s_read 4 j') as [got' k']. destruct (s_read 4 j) as [got k]. cbn [fst snd] in *. subst got.
    destruct (merge_scalar 4 tmp got' =? sp_sig sp).
    + injection H as <- <-. right. exists k. split; [reflexivity|]. split; [lia|left; exact E1].
    + replace (scan_stop sp k) with (scan_stop sp k')
        by (destruct (ext_at X k' k E1) as (d & p & g & e & o' & o & _ & -> & ->); reflexivity).
      destruct (scan_stop sp k'); [discriminate|].
      (* both go on from the same position, at most 3 back from where 4 bytes were read *)
      pose proof (scan_rule_range sp (merge_scalar 4 tmp got') HR) as Rk. set (kk := scan_rule (sp_rules sp) (merge_scalar 4 tmp got')) in *.
      destruct (kk =? 0); [apply (IH _ k' k); [split; [lia|left; exact E1]|exact H]|].
      apply (IH _ (s_seek kk k') (s_seek kk k)); [|exact H]. split; [|left; apply ext_seek_back; [exact E1|lia|lia]].
      destruct E1 as (W1 & _). destruct (ws_seek kk k' W1) as (_ & _ & -> & _). pose proof (wstream_le k' W1). lia.
Qed.

(* the run on the complete stream gives what the run on the cut stream gave, if that ended with the stream still good *)
Definition follows (r' r : res (state * istream)) : Prop :=
  forall s' j2', r' = Ok (s', j2') -> s_good j2' = true -> exists j2, r = Ok (s', j2) /\ Sim X j2' j2.

Lemma follows_err e r : follows (Err e) r.
Proof. intros s' j2' [=]. Qed.

Lemma follows_bind {T} (x : res T) k' k : (forall a, follows (k' a) (k a)) -> follows (bind x k') (bind x k).
Proof. destruct x as [a|e]; cbn [bind]; [auto|intros _; apply follows_err]. Qed.

Lemma follows_dead p s l k' r : seeks_ok cs p = true -> dead k' -> follows (run_r cs call sp cap p s l k') r.
Proof. intros Hs D s' j2' H G. pose proof (dead_failed j2' (dead_stays cs call sp cap Hsig _ _ _ _ _ _ Hs D H)). congruence. Qed.

Lemma sim_read_or_dead n j' j : Sim X j' j ->
  dead (snd (s_read n j')) \/ fst (s_read n j) = fst (s_read n j') /\ Sim X (snd (s_read n j')) (snd (s_read n j)).
Proof.
  intros S. destruct (rd_short j' n) eqn:Sh; [left|right; apply sim_read; assumption].
  apply short_read_dead; [apply (Sim_wstream X j' j S)|apply S|exact Sh].
Qed.

(* a forward-seeking read program on the cut stream: if the stream is still good at the end, every read was served, and the
   complete stream gives the same object *)
Theorem run_r_sim : forall p s l j' j s' j2', seeks_ok cs p = true -> Sim X j' j ->
  run_r cs call sp cap p s l j' = Ok (s', j2') -> s_good j2' = true ->
  exists j2, run_r cs call sp cap p s l j = Ok (s', j2) /\ Sim X j2' j2.
Proof.
  enough (G : forall p s l j' j, seeks_ok cs p = true -> Sim X j' j ->
                follows (run_r cs call sp cap p s l j') (run_r cs call sp cap p s l j))
    by (intros p s l j' j s' j2' Hs HS; exact (G p s l j' j Hs HS s' j2')).
  induction p as [| e | | | f k IH | f k IH | f e k IH | f e k IH | f e k IH | e k IH | e k IH | f e k IH | x t e k IH | x e k IH | k IH | c a IHa b IHb];
    intros s l j' j Hs HS; cbn [run_r]; cbn [seeks_ok] in Hs; try apply follows_err.
  - intros s' j2' [= <- <-] _. exists j. split; [reflexivity|exact HS].
  - destruct (find_field cs f) as [x|]; [|apply follows_err]. destruct (ksize (f_kind x)) as [w|]; [|apply follows_err].
    destruct (sim_read_or_dead w j' j HS) as [D|[Eg S1]]; destruct (s_read w j') as [got' k']; destruct (s_read w j) as [got k0];
      cbn [fst snd] in *.
    + destruct (read_into x (s f) got'); cbn [bind]; [apply follows_dead; assumption|apply follows_err].
    + subst got. apply follows_bind. intros v. apply IH; assumption.
  - apply follows_bind. intros n. destruct (s f) as [|b|]; try apply follows_err.
    destruct (sim_read_or_dead n j' j HS) as [D|[Eg S1]]; destruct (s_read n j') as [got' k']; destruct (s_read n j) as [got k0];
      cbn [fst snd] in *.
    + destruct (zlen b <? zlen got'); [apply follows_err|apply follows_dead; assumption].
    + subst got. destruct (zlen b <? zlen got'); [apply follows_err|apply IH; assumption].
  - apply follows_bind. intros n. destruct (find_field cs f) as [x|]; [|apply follows_err]. destruct (s f) as [|b|]; try apply follows_err.
    destruct (cap <? n * kelt (f_kind x)); [apply follows_err|apply IH; assumption].
  - apply andb_prop in Hs. destruct Hs as [Hs1 Hs2].
    destruct (eval_as cs call I64 s l e) as [off|] eqn:Eo; cbn [bind]; [|apply follows_err].
    apply IH; [exact Hs2|]. apply sim_seek; [exact (seek_ok_nonneg cs call e s l off Hs1 Eo)|exact HS].
  - destruct (find_field cs f) as [x|]; [|apply follows_err]. destruct (f_kind x) as [t| |]; try apply follows_err.
    apply follows_bind. intros v. apply IH; assumption.
  - apply follows_bind. intros v. apply IH; assumption.
  - destruct (l x) as [[? t]|]; [|apply follows_err]. apply follows_bind. intros v. apply IH; assumption.
  - destruct (scan_loop sp (S (S (length (s_data j')))) 0 j') as [[r k']|] eqn:Es; cbn [bind fst snd]; [|apply follows_err].
    destruct (scan_sim _ _ _ _ _ _ HS Es) as [D|(k0 & Es2 & S1)]; [apply follows_dead; assumption|].
    (* the complete stream is longer and gives the search more fuel *)
    rewrite (scan_fuel_mono sp _ (S (S (length (s_data j)))) _ _ _ Es2).
    + cbn [bind fst snd]. apply IH; assumption.
    + rewrite (Sim_data X j' j HS), app_length. lia.
  - apply andb_prop in Hs. destruct Hs as [Hs1 Hs2]. apply follows_bind. intros v.
    destruct (fst v =? 0); [apply IHb|apply IHa]; assumption.
Qed.
End SimRun.

Lemma sim_ext X j' j : Sim X j' j -> s_pos j <= s_pos j' -> ext X j' j.
Proof.
  intros [_ [E|(W' & W & D & Sz & Pe & Pj & G & E)]] P; [exact E|].
  assert (Hp : s_pos j = s_pos j') by lia. unfold ext. auto 10.
Qed.

(* the complete stream is at its end: the cut one, being shorter, is at its own *)
Lemma sim_at_end X j' j : X <> [] -> Sim X j' j -> s_pos j = s_size j -> pstream j' /\ s_pos j' = s_size j'.
Proof.
  intros HX S He. destruct (Sim_at X j' j S) as (d & p & q & g & e & o' & o & Hd & Hq & -> & ->). cbn in He |- *.
  rewrite zlen_app in He. assert (0 < zlen X) by (destruct X; [contradiction|unfold zlen; cbn; lia]).
  split; [split; [apply wstream_ustream; lia|cbn; lia]|lia].
Qed.

(* One iteration of the parser on a cut stream i', for any tables that meet the premises of the termination theorems, compared
   with the same iteration on i, the stream with the lost bytes put back, where it reads a header, knows the type, reads the
   object and then stands at the end.  If a decoder call leaves the cut stream good, it did the same on i (run_r_sim), first
   the header read, then the object's; after the object i' stands at its end as well, and the next iteration ends the stage. *)
Section Cut.
Variables (cs : classes) (sp : scan_params) (cap : Z) (factory : list (Z * Z)) (C_ohb F_osz F_otype : Z).
Hypothesis HR : rules_ok sp = true.
Hypothesis Hsig : sp_sig sp <> 0.
Hypothesis Hohb : ohb_shape cs (prog_of cs C_ohb M_read) = true.
Hypothesis Hcls : forall code, lookup_factory factory code <> 0 -> class_ok cs (lookup_factory factory code) = true.

Local Notation OL := (obj_loop cs sp cap factory C_ohb F_osz F_otype).

Lemma cut_iteration lost i' i fuel acc count h i1 c sz0 o i3 : lost <> [] -> ext lost i' i -> 0 <= s_pos i' ->
  dec cs sp cap C_ohb (fresh cs C_ohb) i = Ok (h, i1) -> s_pos i1 = s_pos i + 16 ->
  lookup_factory factory (geti h F_otype) = c -> c <> 0 -> osize cs c (fresh cs c) = Ok sz0 -> sz0 <= Z.max (geti h F_osz) 16 ->
  dec cs sp cap c (fresh cs c) (s_seek (-16) i1) = Ok (o, i3) -> s_pos i3 = s_size i3 ->
  fst (fst (OL (S (S fuel)) i' acc count)) = acc \/ fst (fst (OL (S (S fuel)) i' acc count)) = acc ++ [(c, o)].
Proof.
  intros Hl Hext Hp' Hdec1 Hp1 <- Hnz Hsz0 Hle Hdec3 He3.
  destruct (iter_inv cs sp cap factory C_ohb F_osz F_otype (S fuel) i' acc count) as [E|(h' & i1' & E1 & G1 & K)]; [left; exact E|].
  (* the header: read by the complete stream as well, and in both it is the 16 bytes at the cursor *)
  destruct (run_r_sim cs _ sp cap HR Hsig lost _ _ _ _ i _ _ (ohb_seeks cs _ Hohb) (conj Hp' (or_introl Hext)) E1 G1) as (j1 & F1 & S1).
  unfold dec in Hdec1. rewrite Hdec1 in F1. injection F1 as <- <-.
  destruct (ohb_consumes cs sp cap factory C_ohb HR Hcls _ _ _ _ _ _ _ Hohb (conj (proj1 Hext) Hp') E1 G1) as (P1' & _ & Q1').
  assert (E1x : ext lost i1' i1) by (apply sim_ext; [exact S1|destruct Hext as (_ & _ & _ & P & _); lia]).
  assert (E2 : ext lost (s_seek (-16) i1') (s_seek (-16) i1)) by (apply ext_seek_back; [exact E1x|lia|lia]).
  destruct (pstream_seek (-16) i1' P1') as ([_ Hp2'] & _); [lia|].
  cbv zeta in K. destruct K as [K|(o' & i3' & E3 & G3)]; [contradiction|].
  destruct (run_r_sim cs _ sp cap HR Hsig lost _ _ _ _ _ _ _ (starts_seeks _ _ (Hcls _ Hnz)) (conj Hp2' (or_introl E2)) E3 G3) as (j3 & F3 & S3).
  unfold dec in Hdec3. rewrite Hdec3 in F3. injection F3 as <- <-.
  right. rewrite (iter_known (S fuel) acc count E1 G1 eq_refl Hnz Hsz0 Hle E3 G3).
  destruct (sim_at_end lost _ _ Hl S3 He3) as [P3 Pe3].
  rewrite (loop_at_end cs sp cap factory C_ohb _ _ Hsig Hohb) by assumption. reflexivity.
Qed.
End Cut.
