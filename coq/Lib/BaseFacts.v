(* BaseFacts.v — byte lists cut at a position, little-endian coding, C integer normalisation.  Loading this file turns off
   ZifyBool's post hook for every later lia (below). *)
From VB Require Import Base IR Sem.
From Coq Require Import ZifyBool.
Local Open Scope Z_scope.

(* lia with booleans (ZifyBool), without the case split on every boolean in the context that ZifyBool installs as
   post hook at each import; where lia has to see / or mod, Z.div_mod_to_equations is called before it *)
Ltac Zify.zify_post_hook ::= idtac.

Lemma ltb_max a b : (if a <? b then b else a) = Z.max a b.
Proof. destruct (Z.ltb_spec a b); lia. Qed.

Lemma zlen_nonneg {A} (l : list A) : 0 <= zlen l.
Proof. unfold zlen. lia. Qed.

Lemma zlen_app {A} (a b : list A) : zlen (a ++ b) = zlen a + zlen b.
Proof. unfold zlen. rewrite app_length. lia. Qed.

Lemma zlen_nil {A} : zlen (@nil A) = 0.
Proof. reflexivity. Qed.

Lemma zlen_cons {A} (x : A) l : zlen (x :: l) = 1 + zlen l.
Proof. unfold zlen. cbn [length]. lia. Qed.

Lemma ztake_app_exact {A} (a b : list A) : ztake (zlen a) (a ++ b) = a.
Proof.
  unfold ztake, zlen. rewrite Nat2Z.id.
  rewrite firstn_app, Nat.sub_diag, firstn_all. cbn. apply app_nil_r.
Qed.

Lemma zdrop_app_exact {A} (a b : list A) : zdrop (zlen a) (a ++ b) = b.
Proof.
  unfold zdrop, zlen. rewrite Nat2Z.id.
  rewrite skipn_app, Nat.sub_diag, skipn_all. reflexivity.
Qed.

Lemma ztake_app_len {A} n (a b : list A) : zlen a = n -> ztake n (a ++ b) = a.
Proof. intros <-. apply ztake_app_exact. Qed.

Lemma zdrop_app_len {A} n (a b : list A) : zlen a = n -> zdrop n (a ++ b) = b.
Proof. intros <-. apply zdrop_app_exact. Qed.

Lemma ztake_all {A} (l : list A) : ztake (zlen l) l = l.
Proof. unfold ztake, zlen. rewrite Nat2Z.id. apply firstn_all. Qed.

Lemma zdrop_all {A} (l : list A) : zdrop (zlen l) l = [].
Proof. unfold zdrop, zlen. rewrite Nat2Z.id. apply skipn_all. Qed.

Lemma skipn_app_le {A} n (l1 l2 : list A) : (n <= length l1)%nat -> skipn n (l1 ++ l2) = skipn n l1 ++ l2.
Proof. intros. rewrite skipn_app. replace (n - length l1)%nat with 0%nat by lia. reflexivity. Qed.

Lemma skipn_skipn' {A} (m n : nat) (l : list A) : skipn n (skipn m l) = skipn (m + n) l.
Proof. revert l. induction m as [|m IH]; intros l; [reflexivity|]. destruct l; [destruct n; reflexivity|]. cbn. apply IH. Qed.

Lemma concat_snoc {A} (ls : list (list A)) x : concat (ls ++ [x]) = concat ls ++ x.
Proof. rewrite concat_app. cbn. rewrite app_nil_r. reflexivity. Qed.

Lemma zlen_rev {A} (l : list A) : zlen (rev l) = zlen l.
Proof. unfold zlen. rewrite rev_length. reflexivity. Qed.
Lemma zlen_firstn {A} n (l : list A) : zlen (firstn n l) = Z.of_nat (Nat.min n (length l)).
Proof. unfold zlen. rewrite firstn_length. reflexivity. Qed.
Lemma zlen_skipn {A} n (l : list A) : zlen (skipn n l) = zlen l - Z.of_nat (Nat.min n (length l)).
Proof. unfold zlen. rewrite skipn_length. lia. Qed.
Lemma zlen_ztake {A} p (l : list A) : p <= zlen l -> zlen (ztake p l) = Z.max 0 p.
Proof. intros H. unfold ztake. rewrite zlen_firstn. unfold zlen in H. lia. Qed.
Lemma zlen_zdrop {A} p (l : list A) : p <= zlen l -> zlen (zdrop p l) = zlen l - Z.max 0 p.
Proof. intros H. unfold zdrop. rewrite zlen_skipn. unfold zlen in *. lia. Qed.

Lemma ztake_add {A} p k (l : list A) : 0 <= p -> 0 <= k -> ztake (p + k) l = ztake p l ++ ztake k (zdrop p l).
Proof.
  intros Hp Hk. unfold ztake, zdrop. rewrite Z2Nat.inj_add by lia.
  rewrite <- (firstn_skipn (Z.to_nat p) (firstn _ l)), firstn_firstn, Nat.min_l, firstn_skipn_comm by lia. reflexivity.
Qed.
Lemma zdrop_add {A} p k (l : list A) : 0 <= p -> 0 <= k -> zdrop (p + k) l = zdrop k (zdrop p l).
Proof. intros Hp Hk. unfold zdrop. rewrite Z2Nat.inj_add, skipn_skipn' by lia. reflexivity. Qed.

Lemma ztake_zdrop {A} n (l : list A) : ztake n l ++ zdrop n l = l.
Proof. unfold ztake, zdrop. apply firstn_skipn. Qed.

Lemma ztake_zdrop_app {A} (a b : list A) p n : 0 <= p -> n + p <= zlen a ->
  ztake n (zdrop p (a ++ b)) = ztake n (zdrop p a).
Proof.
  intros H0 H. unfold ztake, zdrop, zlen in *. rewrite skipn_app, firstn_app.
  replace (Z.to_nat n - _)%nat with 0%nat by (rewrite skipn_length; lia). apply app_nil_r.
Qed.

Lemma zlen_zeros n : 0 <= n -> zlen (zeros n) = n.
Proof. unfold zeros, zlen. intros H. rewrite repeat_length. lia. Qed.

Lemma zeros_nonpos n : n <= 0 -> zeros n = [].
Proof. unfold zeros. intros H. replace (Z.to_nat n) with O by lia. reflexivity. Qed.

(* vector::resize: cut or zero-filled to the new length *)
Lemma zlen_resize (old : list Z) nb : 0 <= nb -> zlen (ztake nb old ++ zeros (nb - zlen old)) = nb.
Proof.
  intros H. rewrite zlen_app.
  destruct (Z_le_gt_dec nb (zlen old)).
  - rewrite zlen_ztake, zeros_nonpos by lia. change (zlen (@nil Z)) with 0. lia.
  - unfold ztake. rewrite firstn_all2 by (unfold zlen in *; lia).
    rewrite zlen_zeros by lia. lia.
Qed.

Lemma zlen_repeat {A} (x : A) n : zlen (repeat x n) = Z.of_nat n.
Proof. unfold zlen. rewrite repeat_length. reflexivity. Qed.

Lemma upd_eq s f v : upd s f v f = v.
Proof. unfold upd. rewrite Z.eqb_refl. reflexivity. Qed.
Lemma upd_neq s f v g : g <> f -> upd s f v g = s g.
Proof. intros H. unfold upd. destruct (Z.eqb_spec g f); [contradiction|reflexivity]. Qed.

Lemma le_enc_nat_length w z : length (le_enc_nat w z) = w.
Proof. revert z; induction w as [|w IH]; intros z; cbn [le_enc_nat length]; [reflexivity|]. rewrite IH. reflexivity. Qed.

Lemma zlen_le_enc w z : 0 <= w -> zlen (le_enc w z) = w.
Proof. intros H. unfold le_enc, zlen. rewrite le_enc_nat_length. lia. Qed.

Lemma le_dec_enc_nat w z : 0 <= z < 256 ^ Z.of_nat w -> le_dec (le_enc_nat w z) = z.
Proof.
  revert z; induction w as [|w IH]; intros z Hz.
  - cbn in *. lia.
  - cbn [le_enc_nat le_dec].
    rewrite IH.
    + pose proof (Z.div_mod z 256). lia.
    + rewrite Nat2Z.inj_succ, Z.pow_succ_r in Hz by lia.
      split; [apply Z.div_pos; lia|]. apply Z.div_lt_upper_bound; lia.
Qed.

Lemma le_dec_enc w z : 0 <= w -> 0 <= z < 256 ^ w -> le_dec (le_enc w z) = z.
Proof.
  intros Hw Hz. unfold le_enc. apply le_dec_enc_nat. rewrite Z2Nat.id by lia. exact Hz.
Qed.

Lemma le_enc_nat_bytes w z : Forall (fun b => 0 <= b < 256) (le_enc_nat w z).
Proof.
  revert z; induction w as [|w IH]; intros z; cbn [le_enc_nat]; constructor; [|apply IH].
  apply Z.mod_pos_bound. lia.
Qed.

Lemma le_dec_bound l : Forall (fun b => 0 <= b < 256) l -> 0 <= le_dec l < 256 ^ zlen l.
Proof.
  induction l as [|b r IH]; intros H.
  - cbn. lia.
  - inversion H as [|? ? Hb Hr]; subst. specialize (IH Hr).
    cbn [le_dec]. rewrite zlen_cons.
    rewrite Z.add_comm, Z.pow_add_r by (try lia; apply zlen_nonneg). lia.
Qed.

Lemma le_enc_dec_nat l : Forall (fun b => 0 <= b < 256) l -> le_enc_nat (length l) (le_dec l) = l.
Proof.
  induction l as [|b r IH]; intros H; [reflexivity|].
  inversion H as [|? ? Hb Hr]; subst.
  cbn [length le_enc_nat le_dec].
  replace ((b + 256 * le_dec r) mod 256) with b by (Z.div_mod_to_equations; lia).
  replace ((b + 256 * le_dec r) / 256) with (le_dec r) by (Z.div_mod_to_equations; lia).
  rewrite IH by exact Hr. reflexivity.
Qed.

Lemma width_pos t : 0 < width t.
Proof. destruct t; cbn; lia. Qed.

Lemma bits_pos t : 0 < bits t.
Proof. unfold bits. pose proof (width_pos t). lia. Qed.

Lemma pow256_bits t : 256 ^ width t = 2 ^ bits t.
Proof.
  unfold bits. replace 256 with (2 ^ 8) by reflexivity.
  rewrite <- Z.pow_mul_r by (pose proof (width_pos t); lia). reflexivity.
Qed.

(* the values a scalar member of type t can hold, as the model stores them *)
Definition in_type (t : ity) (z : Z) : bool :=
  match t with TBool => (z =? 0) || (z =? 1) | _ => in_range t z end.

Lemma norm_id t z : in_type t z = true -> norm t z = z.
Proof.
  intros H; destruct t; unfold in_type, in_range, norm, bits in *; cbn [width signed] in *; try (Z.div_mod_to_equations; lia).
  destruct (z =? 0) eqn:E; lia.
Qed.

Lemma norm_small t z : 3 <= rank t -> 0 <= z < 2 ^ 31 -> norm t z = z.
Proof. intros Ht Hz. apply norm_id. destruct t; cbn [rank] in Ht; try lia; unfold in_type, in_range, bits; cbn [width signed]; lia. Qed.

Lemma norm_unsigned t z : signed t = false -> 0 <= norm t z.
Proof.
  destruct t; try discriminate; intros _; unfold norm, bits; cbn [width signed]; try (apply Z.mod_pos_bound; reflexivity).
  destruct (z =? 0); lia.
Qed.

Lemma norm_in_type t z : in_type t (norm t z) = true.
Proof.
  destruct t; unfold in_type, in_range, norm, bits; cbn [width signed]; try (Z.div_mod_to_equations; lia).
  destruct (z =? 0); reflexivity.
Qed.

Lemma norm_mod_pattern t z : in_type t z = true -> norm t (z mod 2 ^ bits t) = z.
Proof.
  intros H. destruct t; unfold in_type, in_range, norm, bits in *; cbn [width signed] in *; try (Z.div_mod_to_equations; lia).
  assert (z = 0 \/ z = 1) as [-> | ->] by lia; reflexivity.
Qed.

Lemma scalar_roundtrip t z : in_type t z = true ->
  norm t (le_dec (le_enc (width t) (z mod 2 ^ bits t))) = z.
Proof.
  intros H. rewrite le_dec_enc.
  - apply norm_mod_pattern. exact H.
  - pose proof (width_pos t). lia.
  - rewrite pow256_bits. apply Z.mod_pos_bound. apply Z.pow_pos_nonneg; [lia|]. pose proof (bits_pos t). lia.
Qed.
